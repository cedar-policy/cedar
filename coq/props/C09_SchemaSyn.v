(* C09 — the JSON and the Cedar schema syntaxes denote the same schema.
   Model: coq/model/SchemaSyn.v, and coq/model/SchemaJson.v for the JSON tree.  Text-level parsing / printing is
   correspondence-only (vp/props/c09.py). *)
From Coq Require Import Permutation String.
Open Scope string_scope.
From Cedar Require Import SchemaSynProofs SchemaJson SchemaJsonProofs.

(* JSON-tree round trip: decoding the tree the encoder writes gives back the fragment, for every fragment whose
   must-be-common references {"type": n} do not use one of the keywords of the format as n (wf_fragment; the
   condition is necessary: c09_json_roundtrip_needs_wf).  Proved by induction on type expressions (nested records
   and sets), then declaration by declaration.  Tree level: JSON text, `A::B` name syntax, key order and duplicate
   keys are text level (correspondence only). *)
Theorem c09_json_roundtrip :
  forall f, wf_fragment f = true -> json_to_fragment (fragment_to_json f) = Some f.
Proof.
  intros f. unfold fragment_to_json, json_to_fragment, wf_fragment.
  induction f as [|ns f IH]; intros H; [reflexivity|].
  cbn [forallb] in H. apply andb_true_iff in H. destruct H as [Hn Hf].
  cbn [map mkn dec_nss]. rewrite (dec_nsdef_enc ns Hn), (IH Hf). reflexivity.
Qed.
Print Assumptions c09_json_roundtrip.

Example c09_json_roundtrip_needs_wf :
  json_to_fragment (fragment_to_json [mkNs [] [(s2str "T", XCommon (kw "Long"))] [] []])
  = Some [mkNs [] [(s2str "T", XPrim PLong)] [] []].
Proof. reflexivity. Qed.
Example c09_json_roundtrip_nonvacuous : wf_fragment collision_witness = true.
Proof. vm_compute. reflexivity. Qed.

(* PARTIAL (name level).  Writing a must-be-entity or must-be-common reference as a bare name (what fmt.rs
   does) and reading it back as entity-or-common (what the Cedar parser does) resolves to the same definition
   whenever no candidate name is defined in the other kind.  Missing for the full statement
   `cedar_roundtrip f = Some f' -> resolve f' = resolve f`: lifting through qual_ty / conv / the hierarchies,
   and deriving the no-collision hypothesis from the printer's collision test — which is impossible for
   `fmt_name_collision` as modelled: see c09_cedar_roundtrip_refuted. *)
Theorem c09_reference_form_insensitive_partial :
  forall cdefs edefs ns n,
    (((forall p, In p (possibilities ns n) -> mem_name p cdefs = false) ->
      resolve_name RBoth cdefs edefs ns n = resolve_name REntity cdefs edefs ns n) /\
     ((forall p, In p (possibilities ns n) -> mem_name p edefs = false) ->
      resolve_name RBoth cdefs edefs ns n = resolve_name RCommon cdefs edefs ns n))%type.
Proof. intros. apply resolve_in_as_both. Qed.
Print Assumptions c09_reference_form_insensitive_partial.

(* PARTIAL (type level).  Forgetting the reference form of every reference inside a type (`to_eoc`: what a trip
   through the Cedar syntax does to entity / common references) commutes with name resolution, provided no
   candidate name of a must-be-entity reference is a common type and no candidate of a must-be-common reference
   is an entity type (`refs_free`).  Missing: primitives/extension types printed as `__cedar::T`, the context
   position, the lifting through `conv` and the hierarchies, and the derivation of `refs_free` from the printer's
   collision test (false for the empty namespace: c09_cedar_roundtrip_refuted). *)
Theorem c09_reference_form_types_partial :
  forall cdefs edefs ns t,
    refs_free cdefs edefs ns t = true ->
    qual_ty cdefs edefs ns (to_eoc t) = option_map to_eoc (qual_ty cdefs edefs ns t).
Proof. exact qual_ty_to_eoc. Qed.
Print Assumptions c09_reference_form_types_partial.

(* PARTIAL.  Resolution does not depend on the order in which namespaces are declared: the definition sets,
   the builtin aliases, the RFC 70 verdicts and the resolution of every type reference are the same for a
   permuted fragment.  Missing: the order of declarations inside a namespace and the lifting to `resolve`
   (whose result lists are permuted, not equal). *)
Theorem c09_resolve_order_independent_partial :
  forall (f f' : fragment), Permutation f f' ->
    (forall n, mem_name n (entity_defs f ++ action_types f) = mem_name n (entity_defs f' ++ action_types f')) /\
    (forall n, mem_name n (common_defs f) = mem_name n (common_defs f')) /\
    alias_commons (entity_defs f) (common_defs f) = alias_commons (entity_defs f') (common_defs f') /\
    (forall extra ns t,
        qual_ty (common_defs f ++ extra) (entity_defs f ++ action_types f) ns t =
        qual_ty (common_defs f' ++ extra) (entity_defs f' ++ action_types f') ns t) /\
    rfc70_type_violation (entity_defs f ++ common_defs f) = rfc70_type_violation (entity_defs f' ++ common_defs f') /\
    rfc70_action_violation (action_defs f) = rfc70_action_violation (action_defs f').
Proof. exact resolution_order_independent. Qed.
Print Assumptions c09_resolve_order_independent_partial.

(* equal resolved schemas give equal verdicts of every validator (anything computed from the schema) *)
Theorem c09_validation_same :
  forall (f f' : fragment) (s s' : schema) (A : Type) (verdict : schema -> A),
    resolve f = SOk s -> resolve f' = SOk s' -> s = s' -> verdict s = verdict s'.
Proof. intros. subst. reflexivity. Qed.
Print Assumptions c09_validation_same.

(* REFUTED.  The full statement  `cedar_roundtrip f = Some f' -> resolve f' = resolve f`  (JSON -> Cedar text ->
   JSON denotes the same schema whenever the printer accepts) is false of the model: an entity type and a common
   type of the same name in the EMPTY namespace pass its collision test (`fmt_name_collision`: fmt.rs before
   commit 3d7488e of /repo).
   The witness replayed on the implementation is finding C09:empty-ns-collision (vp/props/c09.py probes). *)
Theorem c09_cedar_roundtrip_refuted :
  exists f f' s s',
    cedar_roundtrip f = Some f' /\ resolve f = SOk s /\ resolve f' = SOk s' /\ s <> s'.
Proof. exists collision_witness. exact collision_witness_refutes. Qed.
Print Assumptions c09_cedar_roundtrip_refuted.

(* POSITIVE, at the level of one type expression (attribute / tag / common-type body / element), for ALL types:
   a type written in the Cedar syntax (`cedar_form`: primitives and extension types as `__cedar::T`, every
   reference as a bare entity-or-common name, no `additionalAttributes`) is qualified and converted to the SAME
   validator type as the original, under the exact side conditions
     - refs_free: no candidate name of a must-be-entity reference is a common type (this covers collisions in the
       EMPTY namespace and with the implicit `Action` entity type, which `fmt_name_collision` misses) and no
       candidate of a must-be-common reference is an entity type;
     - exts_known: extension types are known;  ent_ok: after qualification no must-be-entity reference names a
       common type and every record is closed;
     - cd_rel: the common-type definitions of the translated fragment are those of the original, each body kept or
       rewritten by cedar_form, the `__cedar` definitions present (one more unit of fuel pays for the `__cedar::T`
       jump).
   PARTIAL with respect to `collision_free f -> resolve (cedar_roundtrip f) = resolve f`: not assembled over the
   declarations of a fragment (hierarchies and RFC 70 checks do not involve types and are unchanged by
   cedar_roundtrip; the common-type cycle check of the translated fragment is the missing step: it needs a
   pigeonhole argument on reference chains), nor for the `context: Name` position. *)
Theorem c09_cedar_roundtrip_types_partial :
  forall cdefs edefs ns cd cd' fuel t q r,
    builtins_defined cdefs -> cd_rel cd cd' ->
    refs_free cdefs edefs ns t = true -> exts_known t = true ->
    qual_ty cdefs edefs ns t = Some q -> ent_ok cd q = true -> conv fuel cd q = SOk r ->
    exists q', qual_ty cdefs edefs ns (cedar_form t) = Some q' /\ conv (S fuel) cd' q' = SOk r.
Proof.
  intros cdefs edefs ns cd cd' fuel t q r HB R Hfree Hext Hq Hok Hc.
  exists (cedar_form q). split.
  - rewrite (qual_ty_cedar_form cdefs edefs ns HB t Hfree Hext), Hq. reflexivity.
  - exact (proj2 (conv_preserved_all cd cd' R fuel q r Hok Hc)).
Qed.
Print Assumptions c09_cedar_roundtrip_types_partial.

(* REFUTED (second witness).  Even a collision test over all namespaces is not enough: the implicit entity type
   NS::Action collides with a declared common type `Action` (finding C09:action-type-collision). *)
Theorem c09_cedar_roundtrip_refuted_action :
  exists f' s s',
    cedar_roundtrip action_collision_witness = Some f' /\ resolve action_collision_witness = SOk s /\
    resolve f' = SOk s' /\ s <> s'.
Proof. exact action_collision_witness_refutes. Qed.
Print Assumptions c09_cedar_roundtrip_refuted_action.

Example c09_cd_rel_nonvacuous : cd_rel builtin_cd builtin_cd.
Proof. exact cd_rel_builtin. Qed.

(* non-vacuity of the hypotheses above *)
Example c09_resolve_accepts_witness : exists s, resolve collision_witness = SOk s.
Proof. destruct collision_witness_refutes as (f' & s & s' & _ & H & _). exists s. exact H. Qed.
Example c09_printer_refuses_collision_in_namespace :
  cedar_roundtrip (map (fun ns => mkNs [s2str "NS"] (ns_commons ns) (ns_entities ns) (ns_actions ns)) collision_witness) = None.
Proof. vm_compute. reflexivity. Qed.
Example c09_reference_form_instance :
  resolve_name RBoth [[s2str "C"]] [[s2str "NS"; s2str "E"]] [s2str "NS"] [s2str "E"] =
  resolve_name REntity [[s2str "C"]] [[s2str "NS"; s2str "E"]] [s2str "NS"] [s2str "E"].
Proof. vm_compute. reflexivity. Qed.
