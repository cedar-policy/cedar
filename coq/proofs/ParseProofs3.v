From Coq Require Import Lia String.
From Cedar Require Import UnescapeProofs Printable ExprInd BaseFacts SortProofs ParseProofs ParseProofs2.
Open Scope N_scope.

Lemma level_le7 e : (level e <= 7)%nat.
Proof. destruct e; try destruct op; apply Nat.leb_le; reflexivity. Qed.

Lemma bare_level e : bare_operand e = true -> level e = 7%nat.
Proof. destruct e; cbn; try discriminate; try reflexivity; destruct op; cbn; try discriminate; reflexivity. Qed.

Lemma mk_and_not_both a b : both_bool a b = false -> mk_and a b = And a b.
Proof. destruct (mk_and_cases a b) as [(x & y & -> & ->)|E]; [discriminate | intros _; exact E]. Qed.
Lemma mk_or_not_both a b : both_bool a b = false -> mk_or a b = Or a b.
Proof. destruct (mk_or_cases a b) as [(x & y & -> & ->)|E]; [discriminate | intros _; exact E]. Qed.

Definition acc_head (rest : list token) : bool :=
  match rest with TDot :: _ | TLBrack :: _ => true | _ => false end.
Lemma acc_head_facts rest : acc_head rest = true ->
  access_start rest = true /\ no_path rest = true /\ no_call rest.
Proof. destruct rest as [|[] ?]; cbn; intros H; try discriminate; repeat split. Qed.

Definition heads_ok (ts : list token) : Prop :=
  starts_path ts = false /\ not_if_head ts = true /\ head_plain ts = true.

Lemma need_pos e : (1 <= need e)%nat.
Proof. destruct e; try destruct op; cbn [need]; apply le_n_S, Nat.le_0_l. Qed.
Lemma need_set l : need (SetE l) = S (needs l).
Proof. reflexivity. Qed.
Lemma need_ext fn l : need (ExtCall fn l) = S (needs l).
Proof. reflexivity. Qed.
Lemma needs_In a l : In a l -> (need a < needs l)%nat.
Proof.
  induction l as [|x l IH]; intros H; [contradiction|]. cbn [needs].
  destruct H as [->|H]; [lia|]. specialize (IH H). lia.
Qed.

Lemma needs_length l : (length l <= needs l)%nat.
Proof. induction l as [|x l IH]; cbn [length needs]; lia. Qed.
Lemma need_record l : need (RecordE l) = S (needs_r l).
Proof. reflexivity. Qed.
Lemma needs_r_map l : needs_r l = needs (map snd l).
Proof. induction l as [|x l IH]; [reflexivity|]. cbn [needs_r map needs]. rewrite IH. reflexivity. Qed.

Definition after_first (l : list (list token)) (tail : list token) : list token :=
  match l with [] => tail | _ => TComma :: commas l ++ tail end.
Lemma commas_cons x l tail : commas (x :: l) ++ tail = x ++ after_first l tail.
Proof.
  destruct l as [|y l]; [reflexivity|].
  change (commas (x :: y :: l)) with (x ++ TComma :: commas (y :: l)). rewrite <- app_assoc. reflexivity.
Qed.

(* with S (na + nb) fuel both operands can be read, and the loop keeps f - S (na + nb) after the
   operator *)
Lemma chain_fuel na nb f : (S (na + nb) <= f)%nat -> (1 <= nb)%nat ->
  (na < f)%nat /\ (nb < f)%nat /\
  forall n, (f <= n + S na)%nat -> exists n', n = S n' /\ (f <= n' + S (na + nb))%nat.
Proof.
  intros H Hb. split; [lia|]. split; [lia|]. intros [|n'] Hn; [lia|]. exists n'. split; [reflexivity|lia].
Qed.

Section Main.
  Variable np : N -> bool.
  Variable ge : N -> bool.
  Notation PT := (print_toks np ge).
  Notation SP := (sp np ge).
  Notation MWP := (mwp np ge).
  Notation R := parse_expr.

  (* m_notif, m_plain: level 0 prints `if` first, level 6 ! or -.  m_A: e's own level reads the printed
     form back; m_B, m_C: before an attribute access / an operator the parser is left in its loop. *)
  Record main (e : expr) : Prop := {
    m_nopath : forall rest, starts_path (PT e ++ rest) = false;
    m_notif : level e <> 0%nat -> forall rest, not_if_head (PT e ++ rest) = true;
    m_plain : level e <> 0%nat -> level e <> 6%nat -> forall rest, head_plain (PT e ++ rest) = true;
    m_A : forall f, (need e <= f)%nat -> forall rest, follow_ok (level e) rest = true ->
          parse_at (level e) (R f) f (PT e ++ rest) = Some (SP e, rest);
    m_B : bare_operand e = true -> forall f, (need e <= f)%nat -> forall rest, acc_head rest = true ->
          exists n, (f <= n + need e)%nat /\
                    parse_member (R f) f (PT e ++ rest) = access_loop (R f) f n e rest;
    m_C : match e with
          | And _ _ => forall f, (need e <= f)%nat -> forall rest, follow_ok 3 rest = true ->
                       exists n, (f <= n + need e)%nat /\ parse_and (R f) f (PT e ++ rest) = and_loop (R f) f n e rest
          | Or _ _ => forall f, (need e <= f)%nat -> forall rest, follow_ok 2 rest = true ->
                      exists n, (f <= n + need e)%nat /\ parse_or (R f) f (PT e ++ rest) = or_loop (R f) f n e rest
          | BinApp BAdd _ _ | BinApp BSub _ _ =>
                      forall f, (need e <= f)%nat -> forall rest, follow_ok 5 rest = true ->
                      exists n, (f <= n + need e)%nat /\ parse_add (R f) f (PT e ++ rest) = add_loop (R f) f n e rest
          | BinApp BMul _ _ =>
                      forall f, (need e <= f)%nat -> forall rest, follow_ok 6 rest = true ->
                      exists n, (f <= n + need e)%nat /\ parse_mul (R f) f (PT e ++ rest) = mul_loop (R f) f n e rest
          | _ => True
          end
  }.

  Definition stops (e : expr) : Prop :=
    forall f, (need e <= f)%nat -> forall rest, follow_ok (level e) rest = true ->
    parse_at (level e) (R f) f (PT e ++ rest) = Some (SP e, rest).

  (* n is the fuel the loop still has: of its f at most need e are used up *)
  Definition loops (lvl : (list token -> pres) -> nat -> list token -> pres)
      (loop : (list token -> pres) -> nat -> nat -> expr -> list token -> pres)
      (ok : list token -> Prop) (e : expr) : Prop :=
    forall f, (need e <= f)%nat -> forall rest, ok rest ->
    exists n, (f <= n + need e)%nat /\ lvl (R f) f (PT e ++ rest) = loop (R f) f n e rest.

  Definition follows (K : nat) (rest : list token) : Prop := follow_ok K rest = true.

  Definition chains (e : expr) : Prop :=
    match e with
    | And _ _ => loops parse_and and_loop (follows 3) e
    | Or _ _ => loops parse_or or_loop (follows 2) e
    | BinApp BAdd _ _ | BinApp BSub _ _ => loops parse_add add_loop (follows 5) e
    | BinApp BMul _ _ => loops parse_mul mul_loop (follows 6) e
    | _ => True
    end.

  Lemma main_intro e : (forall rest, heads_ok (PT e ++ rest)) -> stops e ->
    (bare_operand e = true -> loops parse_member access_loop (fun rest => acc_head rest = true) e) ->
    chains e -> main e.
  Proof.
    intros Hh A B C.
    constructor; [intros rest; apply Hh|intros _ rest; apply Hh|intros _ _ rest; apply Hh|exact A|exact B|exact C].
  Qed.

  Lemma top x : printable x = true -> main x ->
    forall f, (need x < f)%nat -> forall rest, follow_ok 0 rest = true ->
    R f (PT x ++ rest) = Some (SP x, rest).
  Proof.
    intros Hp M f Hf rest Hr. destruct f as [|f']; [lia|]. cbn [parse_expr].
    change (parse_expr_body (R f') f') with (parse_at 0 (R f') f').
    destruct (Nat.eq_dec (level x) 0) as [E|E].
    - pose proof (m_A x M f') as HA. rewrite E in HA. apply HA; [lia|exact Hr].
    - apply (descend (R f') f' (level x) 0).
      + apply (m_A x M); [lia|]. eapply follow_mono; [exact Hr|lia].
      + lia.
      + apply level_le7.
      + exact Hr.
      + intros E7. apply (m_plain x M); lia.
      + apply (m_notif x M). exact E.
  Qed.

  Lemma head_mwp x rest : main x -> heads_ok (MWP x ++ rest).
  Proof.
    intros M. unfold mwp, wrapt. destruct (bare_operand x) eqn:Hb; [|repeat split].
    pose proof (bare_level x Hb) as E7. repeat split.
    - apply (m_nopath x M).
    - apply (m_notif x M). lia.
    - apply (m_plain x M); lia.
  Qed.

  Lemma paren_primary x : printable x = true -> main x ->
    forall f fuel, (need x < f)%nat -> forall rest,
    parse_primary (R f) fuel (TLParen :: PT x ++ TRParen :: rest) = Some (EExpr x, rest).
  Proof.
    intros Hp M f fuel Hf rest. eapply primary_paren.
    - apply (top x Hp M f Hf). apply follow0_rparen.
    - apply into_expr_sp. exact Hp.
  Qed.

  Lemma operand x : printable x = true -> main x ->
    forall f, (need x < f)%nat -> forall L, (L <= 7)%nat -> forall rest, follow_ok L rest = true ->
    exists r, parse_at L (R f) f (MWP x ++ rest) = Some (r, rest) /\ into_expr r = Some x.
  Proof.
    intros Hp M f Hf L HL rest Hr.
    pose proof (follow_mono L 7 rest Hr HL) as H7.
    unfold mwp, wrapt. destruct (bare_operand x) eqn:Hb.
    - pose proof (bare_level x Hb) as E7. exists (SP x). split; [|apply into_expr_sp; exact Hp].
      assert (level x <> 0 /\ level x <> 6)%nat as [L0 L6] by (rewrite E7; split; discriminate).
      apply (descend (R f) f 7 L);
        [|exact HL|apply le_n|exact Hr|intros _; apply (m_plain x M L0 L6)|apply (m_notif x M L0)].
      pose proof (m_A x M f) as HA. rewrite E7 in HA. apply HA; [apply Nat.lt_le_incl; exact Hf|exact H7].
    - exists (EExpr x). split; [|reflexivity]. cbn [app]. rewrite <- app_assoc. cbn [app].
      apply primary_at; [apply paren_primary; assumption|exact HL|exact Hr|reflexivity|reflexivity].
  Qed.

  Lemma operand_acc x : printable x = true -> main x ->
    forall f, (need x < f)%nat -> forall rest, acc_head rest = true ->
    exists n, (f <= n + S (need x))%nat /\
              parse_member (R f) f (MWP x ++ rest) = access_loop (R f) f n x rest.
  Proof.
    intros Hp M f Hf rest Hr. unfold mwp, wrapt. destruct (bare_operand x) eqn:Hb.
    - destruct (m_B x M Hb f ltac:(lia) rest Hr) as (n & Hn & He). exists n. split; [lia|exact He].
    - exists f. split; [lia|]. cbn [app]. rewrite <- app_assoc. cbn [app].
      destruct (acc_head_facts rest Hr) as (Ha & _ & _).
      eapply member_access; [apply paren_primary; assumption|exact Ha|intros n; discriminate|reflexivity].
  Qed.

  Lemma heads_operand x tail rest : main x -> heads_ok ((MWP x ++ tail) ++ rest).
  Proof. intros M. rewrite <- app_assoc. apply head_mwp. exact M. Qed.

  Lemma main_member e : level e = 7%nat -> SP e = EExpr e -> (forall rest, heads_ok (PT e ++ rest)) ->
    loops parse_member access_loop no_call e -> main e.
  Proof.
    intros E7 Es Hh G. apply main_intro; [exact Hh| | |].
    - intros f Hn rest Hr. rewrite E7 in *. rewrite Es. cbn [parse_at].
      destruct (G f Hn rest (follow7_no_call rest Hr)) as (n & _ & He). rewrite He.
      apply access_stop. apply follow7_no_access. exact Hr.
    - intros _ f Hn rest Hr. apply (G f Hn rest). apply acc_head_facts. exact Hr.
    - destruct e; try exact I; try discriminate E7. destruct op; try exact I; discriminate E7.
  Qed.

  Lemma main_rel e : level e = 3%nat -> (forall rest, heads_ok (PT e ++ rest)) -> stops e -> main e.
  Proof.
    intros E3 Hh A. apply main_intro; [exact Hh|exact A| |].
    - intros Hb. rewrite (bare_level e Hb) in E3. discriminate E3.
    - destruct e; try exact I; try discriminate E3. destruct op; try exact I; discriminate E3.
  Qed.

  (* The printer leaves the left operand of t bare exactly when it is the same operator (chained):
     the parser is then already in the loop with it, by its own chains; otherwise it is an operand
     like the right one. *)
  Section Chain.
    Variable loop : (list token -> pres) -> nat -> nat -> expr -> list token -> pres.
    Variable t : token.
    Variable mk : expr -> expr -> expr.
    Variable L : nat.
    Hypothesis L_range : (1 <= L <= 5)%nat.
    Hypothesis enter : forall rec fuel ts r ts2 a,
      parse_at (S L) rec fuel ts = Some (r, t :: ts2) -> into_expr r = Some a ->
      parse_at L rec fuel ts = loop rec fuel fuel a (t :: ts2).
    Hypothesis step : forall rec fuel n acc ts2 r2 rest b,
      parse_at (S L) rec fuel ts2 = Some (r2, rest) -> into_expr r2 = Some b ->
      loop rec fuel (S n) acc (t :: ts2) = loop rec fuel n (mk acc b) rest.
    Hypothesis stop : forall rec fuel n acc rest,
      follow_ok L rest = true -> loop rec fuel n acc rest = Some (EExpr acc, rest).
    Hypothesis t_follows : forall rest, follow_ok (S L) (t :: rest) = true.

    Lemma chain a b e (chained : bool) :
      printable a = true -> main a -> printable b = true -> main b ->
      (chained = true -> level a = L /\ loops (parse_at L) loop (follows (S L)) a) ->
      PT e = (if chained then PT a else MWP a) ++ t :: MWP b ->
      need e = S (need a + need b) -> level e = L -> SP e = EExpr e -> bare_operand e = false -> mk a b = e ->
      (loops (parse_at L) loop (follows (S L)) e -> chains e) -> main e.
    Proof.
      intros Hpa Ma Hpb Mb Hc EP En El Es Eb Emk HC.
      assert (S L <= 7)%nat as HL by (clear -L_range; lia).
      assert (loops (parse_at L) loop (follows (S L)) e) as C.
      { intros f Hn rest Hr. rewrite En in Hn |- *.
        destruct (chain_fuel _ _ f Hn (need_pos b)) as (Fa & Fb & Fn).
        destruct (operand b Hpb Mb f Fb (S L) HL rest Hr) as (rb & Hb & Ib).
        assert (exists n, (f <= n + S (need a))%nat /\
                  parse_at L (R f) f (PT e ++ rest) = loop (R f) f n a (t :: MWP b ++ rest)) as (n & Hn' & He).
        { rewrite EP, <- app_assoc. cbn [app]. destruct chained.
          - destruct (Hc eq_refl) as [_ Ca].
            destruct (Ca f (Nat.lt_le_incl _ _ Fa) (t :: MWP b ++ rest) (t_follows _)) as (n & Hn' & He).
            exists n. split; [rewrite Nat.add_succ_r; apply le_S; exact Hn'|exact He].
          - destruct (operand a Hpa Ma f Fa (S L) HL (t :: MWP b ++ rest) (t_follows _)) as (ra & Ha & Ia).
            exists f. split; [apply Nat.le_add_r|]. eapply enter; eassumption. }
        destruct (Fn n Hn') as (n' & -> & Hn''). exists n'. split; [exact Hn''|].
        rewrite He, <- Emk. eapply step; eassumption. }
      apply main_intro; [| |rewrite Eb; discriminate|exact (HC C)].
      - intros rest. rewrite EP. destruct chained; [|apply heads_operand; exact Ma].
        destruct (Hc eq_refl) as [La _]. rewrite <- app_assoc.
        assert (level a <> 0 /\ level a <> 6)%nat as [L0 L6] by (clear -La L_range; lia).
        repeat split; [apply (m_nopath _ Ma)|apply (m_notif _ Ma L0)|apply (m_plain _ Ma L0 L6)].
      - intros f Hn rest Hr. rewrite El in Hr |- *. rewrite Es.
        destruct (C f Hn rest (follow_mono L (S L) rest Hr (Nat.le_succ_diag_r L))) as (n & _ & He). rewrite He.
        apply stop. exact Hr.
    Qed.
  End Chain.

  Lemma PT_and a b :
    PT (And a b) = (if match a with And _ _ => true | _ => false end then PT a else MWP a) ++ TAndAnd :: MWP b.
  Proof.
    change (PT (And a b)) with ((match a with And _ _ => PT a | _ => MWP a end) ++ TAndAnd :: MWP b).
    destruct a; reflexivity.
  Qed.

  Lemma PT_or a b :
    PT (Or a b) = (if match a with Or _ _ => true | _ => false end then PT a else MWP a) ++ TOrOr :: MWP b.
  Proof.
    change (PT (Or a b)) with ((match a with Or _ _ => PT a | _ => MWP a end) ++ TOrOr :: MWP b).
    destruct a; reflexivity.
  Qed.

  (* the bullets below, in order: L_range, enter, step, stop, the chained left operand, (the shape of
     PT and mk a b = e for && and ||,) chains of the result *)
  Lemma and_case a b : printable a = true -> main a -> printable b = true -> main b ->
    both_bool a b = false -> main (And a b).
  Proof.
    intros Hpa Ma Hpb Mb Hbb.
    apply chain with (loop := and_loop) (t := TAndAnd) (mk := mk_and) (L := 2%nat)
                     (a := a) (b := b) (chained := match a with And _ _ => true | _ => false end);
      try assumption; try reflexivity.
    - lia.
    - exact parse_and_enter.
    - exact and_loop_step.
    - intros rec fuel n acc rest H. apply and_loop_stop, follow_and, H.
    - intros Hc. destruct a; try discriminate Hc. split; [reflexivity|exact (m_C _ Ma)].
    - apply PT_and.
    - apply mk_and_not_both. exact Hbb.
    - exact (fun C => C).
  Qed.

  Lemma or_case a b : printable a = true -> main a -> printable b = true -> main b ->
    both_bool a b = false -> main (Or a b).
  Proof.
    intros Hpa Ma Hpb Mb Hbb.
    apply chain with (loop := or_loop) (t := TOrOr) (mk := mk_or) (L := 1%nat)
                     (a := a) (b := b) (chained := match a with Or _ _ => true | _ => false end);
      try assumption; try reflexivity.
    - lia.
    - exact parse_or_enter.
    - exact or_loop_step.
    - intros rec fuel n acc rest H. apply or_loop_stop, follow_or, H.
    - intros Hc. destruct a; try discriminate Hc. split; [reflexivity|exact (m_C _ Ma)].
    - apply PT_or.
    - apply mk_or_not_both. exact Hbb.
    - exact (fun C => C).
  Qed.

  Lemma add_case a b : printable a = true -> main a -> printable b = true -> main b -> main (BinApp BAdd a b).
  Proof.
    intros Hpa Ma Hpb Mb.
    apply chain with (loop := add_loop) (t := TPlus) (mk := BinApp BAdd) (L := 4%nat)
                     (a := a) (b := b) (chained := same_assoc BAdd a);
      try assumption; try reflexivity.
    - lia.
    - intros rec fuel ts r ts2 x H. exact (parse_add_enter rec fuel ts r TPlus ts2 x H eq_refl).
    - exact add_loop_plus.
    - intros rec fuel n acc rest H. apply add_loop_stop, follow_add, H.
    - intros Hc. destruct a; try discriminate Hc. destruct op; try discriminate Hc.
      split; [reflexivity|exact (m_C _ Ma)].
    - exact (fun C => C).
  Qed.

  Lemma sub_case a b : printable a = true -> main a -> printable b = true -> main b -> main (BinApp BSub a b).
  Proof.
    intros Hpa Ma Hpb Mb.
    apply chain with (loop := add_loop) (t := TMinus) (mk := BinApp BSub) (L := 4%nat)
                     (a := a) (b := b) (chained := same_assoc BSub a);
      try assumption; try reflexivity.
    - lia.
    - intros rec fuel ts r ts2 x H. exact (parse_add_enter rec fuel ts r TMinus ts2 x H eq_refl).
    - exact add_loop_minus.
    - intros rec fuel n acc rest H. apply add_loop_stop, follow_add, H.
    - intros Hc. destruct a; try discriminate Hc. destruct op; try discriminate Hc.
      split; [reflexivity|exact (m_C _ Ma)].
    - exact (fun C => C).
  Qed.

  Lemma mul_case a b : printable a = true -> main a -> printable b = true -> main b -> main (BinApp BMul a b).
  Proof.
    intros Hpa Ma Hpb Mb.
    apply chain with (loop := mul_loop) (t := TStar) (mk := BinApp BMul) (L := 5%nat)
                     (a := a) (b := b) (chained := same_assoc BMul a);
      try assumption; try reflexivity.
    - lia.
    - exact parse_mul_enter.
    - exact mul_loop_star.
    - intros rec fuel n acc rest H. apply mul_loop_stop, follow_mul, H.
    - intros Hc. destruct a; try discriminate Hc. destruct op; try discriminate Hc.
      split; [reflexivity|exact (m_C _ Ma)].
    - exact (fun C => C).
  Qed.

  Lemma leaf_not_name e : is_leaf e ->
    forall n, SP e <> EName n.
  Proof. destruct e; try contradiction; intros _ n; try discriminate. destruct p; discriminate. Qed.

  Lemma leaf_heads e : is_leaf e ->
    printable e = true -> forall rest, heads_ok (PT e ++ rest).
  Proof.
    intros Hk Hp rest. destruct e; try contradiction.
    - destruct p as [b|z|s|u].
      + destruct b; repeat split.
      + cbn [print_toks prim_toks]. destruct (z <? 0)%Z; repeat split.
      + repeat split.
      + cbn [print_toks prim_toks]. unfold uid_toks. cbn [printable] in Hp.
        apply andb_true_iff in Hp. destruct Hp as [Hty _]. destruct (uty u) as [|c p]; [discriminate|].
        rewrite name_toks_cons. unfold heads_ok. cbn [app starts_path not_if_head head_plain]. repeat split.
        unfold name_ok in Hty. cbn [forallb] in Hty. apply andb_true_iff in Hty. destruct Hty as [Hc _].
        destruct (unreserved_not_kw c (ident_ok_unreserved c Hc)) as (_ & _ & Hif). rewrite Hif. reflexivity.
    - destruct v; repeat split.
    - destruct s; repeat split.
  Qed.

  Lemma leaf_case e : is_leaf e ->
    printable e = true -> main e.
  Proof.
    intros Hk Hp.
    assert (level e = 7%nat) as E7 by (destruct e; try contradiction; reflexivity).
    assert (need e = 1%nat) as En by (destruct e; try contradiction; reflexivity).
    apply main_intro; [apply leaf_heads; assumption| | |destruct e; try contradiction; exact I].
    - intros f Hf rest Hr. rewrite E7 in *. destruct f as [|f']; [lia|].
      destruct (follow7_no_access rest Hr) as [Ha Hn]. cbn [parse_at].
      apply member_no_access; [|exact Ha]. apply leaf_primary; assumption.
    - intros _ f Hf rest Hr. destruct f as [|f']; [lia|].
      destruct (acc_head_facts rest Hr) as (Ha & Hn & _).
      exists (S f'). split; [lia|].
      eapply member_access.
      * apply leaf_primary; assumption.
      * exact Ha.
      * apply leaf_not_name; exact Hk.
      * apply into_expr_sp; exact Hp.
  Qed.

  Lemma body_if rec fuel tsc rc ts1 rt ts2 re ts3 c t e :
    starts_path tsc = false -> rec tsc = Some (rc, tid "then" :: ts1) ->
    rec ts1 = Some (rt, tid "else" :: ts2) -> rec ts2 = Some (re, ts3) ->
    into_expr rc = Some c -> into_expr rt = Some t -> into_expr re = Some e ->
    parse_expr_body rec fuel (tid "if" :: tsc) = Some (EExpr (If c t e), ts3).
  Proof.
    intros Hs H1 H2 H3 I1 I2 I3. unfold parse_expr_body, tid. rewrite kw_if, Hs, H1.
    unfold tid. rewrite kw_then, H2. unfold tid. rewrite kw_else, H3, I1, I2, I3. reflexivity.
  Qed.

  Lemma if_case c t e : printable c = true -> main c -> printable t = true -> main t ->
    printable e = true -> main e -> main (If c t e).
  Proof.
    intros Hpc Mc Hpt Mt Hpe Me.
    constructor; [reflexivity|intros H; destruct (H eq_refl)|intros H; destruct (H eq_refl)| |discriminate|exact I].
    intros f Hn rest Hr. cbn [level parse_at need] in *.
    cbn [print_toks]. rewrite <- app_comm_cons, <- app_assoc, <- app_comm_cons, <- app_assoc, <- app_comm_cons.
    eapply body_if.
    - apply (m_nopath c Mc).
    - apply (top c Hpc Mc); [lia|apply follow0_then].
    - apply (top t Hpt Mt); [lia|apply follow0_else].
    - apply (top e Hpe Me); [lia|exact Hr].
    - apply into_expr_sp; exact Hpc.
    - apply into_expr_sp; exact Hpt.
    - apply into_expr_sp; exact Hpe.
  Qed.

  Lemma not_case a : printable a = true -> main a -> main (UnApp UNot a).
  Proof.
    intros Hp M.
    constructor; [reflexivity|reflexivity|intros _ H; destruct (H eq_refl)| |discriminate|exact I].
    intros f Hn rest Hr. cbn [level parse_at need] in *.
    change (PT (UnApp UNot a) ++ rest) with (TBang :: (MWP a ++ rest)).
    destruct (operand a Hp M f ltac:(lia) 7%nat ltac:(lia) rest (follow_mono 6 7 rest Hr ltac:(lia))) as (ra & Ha & Ia).
    eapply parse_unary_not; [apply (head_mwp a _ M)|exact Ha|exact Ia].
  Qed.

  Lemma neg_case a : printable a = true -> main a -> main (UnApp UNeg a).
  Proof.
    intros Hp M.
    constructor; [reflexivity|reflexivity|intros _ H; destruct (H eq_refl)| |discriminate|exact I].
    intros f Hn rest Hr. cbn [level parse_at need] in *. cbn [print_toks app]. rewrite <- app_assoc. cbn [app].
    destruct (follow7_no_access rest (follow_mono 6 7 rest Hr ltac:(lia))) as [Hacc _].
    eapply parse_unary_neg_paren with (r := EExpr a); [|reflexivity].
    apply member_no_access; [|exact Hacc]. apply paren_primary; [exact Hp|exact M|lia].
  Qed.

  Lemma rel_case op a b : level (BinApp op a b) = 3%nat ->
    printable a = true -> main a -> printable b = true -> main b -> main (BinApp op a b).
  Proof.
    intros E3 Hpa Ma Hpb Mb.
    assert (exists t rop, PT (BinApp op a b) = MWP a ++ t :: MWP b /\ relop_of t = Some rop /\
              mk_rel rop a b = Some (BinApp op a b) /\ forall rest, follow_ok 4 (t :: rest) = true)
      as (t & rop & EP & Hrop & Hmk & Ht).
    { destruct op; try discriminate E3;
        [exists TEqEq, REq|exists TLt, RLt|exists TLe, RLe|exists (tid "in"), RIn]; repeat split. }
    apply main_rel; [exact E3|intros rest; rewrite EP; apply heads_operand; exact Ma|].
    intros f Hn rest Hr. rewrite E3 in *. cbn [need parse_at sp] in *. rewrite EP, <- app_assoc. cbn [app].
    destruct (operand a Hpa Ma f ltac:(lia) 4%nat ltac:(lia) (t :: MWP b ++ rest) (Ht _)) as (ra & Ha & Ia).
    destruct (operand b Hpb Mb f ltac:(lia) 4%nat ltac:(lia) rest (follow_mono 3 4 rest Hr ltac:(lia)))
      as (rb & Hb & Ib).
    eapply parse_rel_relop; try eassumption. apply follow_rel; exact Hr.
  Qed.

  Lemma has_case a k : printable a = true -> main a -> wf_str k = true -> main (HasAttr a k).
  Proof.
    intros Hp M Hk. apply main_rel; [reflexivity|intros rest; apply (heads_operand a _ rest M)|].
    intros f Hn rest Hr. cbn [level parse_at need sp] in *. cbn [print_toks]. rewrite <- app_assoc. cbn [app].
    destruct (operand a Hp M f ltac:(lia) 4%nat ltac:(lia) (tid "has" :: key_tok np ge k :: rest) eq_refl)
      as (ra & Ha & Ia).
    fold (mwp np ge a).
    eapply parse_rel_has with (attrs := [k]); [exact Ha|exact Ia| |reflexivity].
    unfold key_tok. destruct (is_normalized_ident k) eqn:En.
    - cbn [parse_has_rhs]. rewrite (normalized_unreserved k En), (follow3_haspath rest Hr). reflexivity.
    - unfold tstr. cbn [parse_has_rhs]. rewrite unescape_opt_escape by exact Hk. reflexivity.
  Qed.

  Lemma like_case a p : printable a = true -> main a -> wf_pattern p = true -> main (Like a p).
  Proof.
    intros Hp M Hk. apply main_rel; [reflexivity|intros rest; apply (heads_operand a _ rest M)|].
    intros f Hn rest Hr. cbn [level parse_at need sp] in *. cbn [print_toks]. rewrite <- app_assoc. cbn [app].
    destruct (operand a Hp M f ltac:(lia) 4%nat ltac:(lia) (tid "like" :: TStr (show_pattern np ge p) :: rest) eq_refl)
      as (ra & Ha & Ia).
    fold (mwp np ge a).
    eapply parse_rel_like; [exact Ha|exact Ia| |apply to_pattern_show; exact Hk].
    apply (str_tok_at (R f) f 4); [lia|]. eapply follow_mono; [exact Hr|lia].
  Qed.

  Lemma name_at rec fuel t rest : name_ok t = true -> follow_ok 3 rest = true ->
    exists rt, parse_at 4 rec fuel (name_toks t ++ rest) = Some (rt, rest) /\
               type_name_of rt = Some t.
  Proof.
    intros Hn Hr. destruct t as [|c p]; [discriminate|].
    pose proof (name_ok_unreserved _ Hn) as Hu.
    assert (unreserved c = true) as Hc by (cbn [forallb] in Hu; apply andb_true_iff in Hu; apply Hu).
    destruct (follow7_no_access rest (follow_mono 3 7 rest Hr ltac:(lia))) as [_ Hnp].
    assert (exists rt, parse_primary rec fuel (name_toks (c :: p) ++ rest) = Some (rt, rest) /\
              type_name_of rt = Some (c :: p))
      as (rt & Hprim & Hty).
    { rewrite name_toks_cons. destruct p as [|d p'].
      - destruct (ident_primary rec fuel c rest Hc Hnp) as (r & H1 & _ & H2). exists r. split; assumption.
      - cbn [app parse_primary]. rewrite parse_path_name by exact Hnp. rewrite Hu. eexists. split; reflexivity. }
    exists rt. split; [|exact Hty]. rewrite name_toks_cons in *.
    apply primary_at; [exact Hprim|lia|exact (follow_mono 3 4 rest Hr ltac:(lia))|reflexivity|].
    cbn [app not_if_head]. rewrite (proj2 (proj2 (unreserved_not_kw c Hc))). reflexivity.
  Qed.

  Lemma is_case a t : printable a = true -> main a -> name_ok t = true -> main (Is a t).
  Proof.
    intros Hp M Hk. apply main_rel; [reflexivity|intros rest; apply (heads_operand a _ rest M)|].
    intros f Hn rest Hr. cbn [level parse_at need sp] in *. cbn [print_toks]. rewrite <- app_assoc. cbn [app].
    destruct (operand a Hp M f ltac:(lia) 4%nat ltac:(lia) (tid "is" :: name_toks t ++ rest) eq_refl) as (ra & Ha & Ia).
    destruct (name_at (R f) f t rest Hk Hr) as (rt & Hrt & Hty).
    fold (mwp np ge a).
    eapply parse_rel_is; [exact Ha|exact Ia|exact Hrt|exact Hty|apply follow3_not_in; exact Hr].
  Qed.

  Lemma args_ok close ctok : close ctok = true -> match ctok with TComma => False | _ => True end ->
    (forall f, fails_on close (R f)) -> (forall rest, follow_ok 0 (ctok :: rest) = true) ->
    forall es f, Forall (fun e => printable e = true /\ main e) es -> (forall e, In e es -> (need e < f)%nat) ->
    forall n rest, (length es <= n)%nat ->
    args_loop (R f) n close (commas (map PT es) ++ ctok :: rest) = Some (es, rest).
  Proof.
    intros Hc Hnc Hs Hfo es f HF. induction HF as [|e es [Hp M] HF IH]; intros Hn n rest Hl.
    - cbn [map commas app]. apply args_loop_nil. exact Hc.
    - destruct n as [|k]; [cbn in Hl; lia|].
      assert (need e < f)%nat as Hne by (apply Hn; left; reflexivity).
      cbn [map]. rewrite commas_cons. erewrite args_loop_cons;
        [|apply Hs|apply (top e Hp M f Hne)|apply into_expr_sp; exact Hp].
      + destruct es as [|e2 es']; cbn [map after_first].
        * destruct ctok; try contradiction; cbv beta iota; rewrite Hc; reflexivity.
        * rewrite IH; [reflexivity| |cbn [length] in *; lia]. intros x Hx. apply Hn. right. exact Hx.
      + destruct es; [apply Hfo|reflexivity].
  Qed.

  Lemma args_paren es f rest : Forall (fun e => printable e = true /\ main e) es ->
    (forall e, In e es -> (need e < f)%nat) -> (length es <= f)%nat ->
    args_loop (R f) f is_rparen (commas (map PT es) ++ TRParen :: rest) = Some (es, rest).
  Proof.
    intros HF Hn Hl. apply (args_ok is_rparen TRParen eq_refl I); [|exact follow0_rparen|assumption..].
    intros f0. apply parse_expr_fails_on. intros []; try discriminate; auto.
  Qed.

  Lemma args_brack es f rest : Forall (fun e => printable e = true /\ main e) es ->
    (forall e, In e es -> (need e < f)%nat) -> (length es <= f)%nat ->
    args_loop (R f) f is_rbrack (commas (map PT es) ++ TRBrack :: rest) = Some (es, rest).
  Proof.
    intros HF Hn Hl. apply (args_ok is_rbrack TRBrack eq_refl I); [|exact follow0_rbrack|assumption..].
    intros f0. apply parse_expr_fails_on. intros []; try discriminate; auto.
  Qed.

  Lemma method_case r m args e :
    printable r = true -> main r -> Forall (fun x => printable x = true /\ main x) args ->
    unreserved m = true -> to_meth m r args = Some e ->
    PT e = MWP r ++ TDot :: TIdent m :: TLParen :: commas (map PT args) ++ [TRParen] ->
    level e = 7%nat -> SP e = EExpr e ->
    (S (need r) < need e)%nat -> (forall x, In x args -> (need x < need e)%nat) -> (length args <= need e)%nat ->
    main e.
  Proof.
    intros Hp M HF Hu Hm EP E7 Es Hnr Hna Hl.
    apply main_member; [exact E7|exact Es|intros rest; rewrite EP; apply heads_operand; exact M|].
    intros f Hn rest _. rewrite EP, <- app_assoc. cbn [app]. rewrite <- app_assoc. cbn [app].
    destruct (operand_acc r Hp M f ltac:(lia)
                (TDot :: TIdent m :: TLParen :: commas (map PT args) ++ TRParen :: rest) eq_refl)
      as (n0 & Hn0 & He).
    destruct n0 as [|n]; [lia|]. exists n. split; [lia|]. rewrite He. cbn [access_loop].
    rewrite Hu, args_paren, Hm; [reflexivity|exact HF| |lia].
    intros x Hx. specialize (Hna x Hx). lia.
  Qed.

  Lemma method_binop_case op a b : binop_tok op = None ->
    printable a = true -> main a -> printable b = true -> main b -> main (BinApp op a b).
  Proof.
    intros Hop Hpa Ma Hpb Mb. pose proof (need_pos b).
    assert (exists m, binop_method_name op = TIdent m /\ unreserved m = true /\
              to_meth m a [b] = Some (BinApp op a b) /\ level (BinApp op a b) = 7%nat) as (m & Hm & Hu & Hto & E7)
      by (destruct op; try discriminate Hop; eexists; repeat split).
    apply (method_case a m [b] (BinApp op a b) Hpa Ma); [|exact Hu|exact Hto| |exact E7|reflexivity| | |].
    - constructor; [split; assumption|constructor].
    - cbn [print_toks]. rewrite Hop, Hm. reflexivity.
    - cbn [need]. lia.
    - intros x [<-|[]]. cbn [need]. lia.
    - cbn [need length]. lia.
  Qed.

  Lemma isEmpty_case a : printable a = true -> main a -> main (UnApp UIsEmpty a).
  Proof.
    intros Hp M. apply (method_case a (ascii "isEmpty") []); try assumption; try reflexivity.
    - constructor.
    - cbn [need]. lia.
    - intros x [].
    - cbn [length]. lia.
  Qed.

  Lemma ext_case fn args : ext_ok fn args = true -> Forall (fun x => printable x = true /\ main x) args ->
    main (ExtCall fn args).
  Proof.
    intros Hok HF.
    pose proof (need_ext fn args) as En.
    unfold ext_ok in Hok. destruct (is_function_name fn) eqn:Efn.
    - destruct (function_fn_facts fn Efn) as (b & -> & Hms & Kif & Hfunc & Hprim).
      assert (forall rest, PT (ExtCall [b] args) ++ rest
                           = TIdent b :: TLParen :: commas (map PT args) ++ TRParen :: rest) as EP.
      { intros rest. cbn [print_toks]. rewrite Hms. cbn [name_toks app]. rewrite <- app_assoc. reflexivity. }
      apply main_member; try reflexivity.
      + intros rest. rewrite EP. unfold heads_ok. cbn [starts_path not_if_head head_plain]. rewrite Kif. repeat split.
      + intros f Hn rest _. rewrite En in *. exists f. split; [lia|]. rewrite EP.
        eapply member_call; [apply Hprim| |apply Hfunc].
        apply args_paren; [exact HF| |pose proof (needs_length args); lia].
        intros x Hx. pose proof (needs_In x args Hx). lia.
    - cbn [orb] in Hok. apply andb_true_iff in Hok. destruct Hok as [Hms Hne].
      destruct args as [|r args']; [discriminate Hne|].
      destruct fn as [|m [|? ?]]; try discriminate Hms.
      cbn [is_method_style] in Hms. destruct (method_fn_facts m Hms) as [Hu Hmeth].
      inversion HF as [|? ? [Hpr Mr] HF']; subst.
      apply (method_case r m args'); try assumption; try reflexivity.
      + apply Hmeth.
      + cbn [print_toks is_method_style]. rewrite Hms. reflexivity.
      + rewrite En. cbn [needs]. lia.
      + intros x Hx. rewrite En. cbn [needs]. pose proof (needs_In x args' Hx). lia.
      + rewrite En. cbn [needs]. pose proof (needs_length args'). lia.
  Qed.

  Lemma getattr_case a k : printable a = true -> main a -> wf_str k = true -> main (GetAttr a k).
  Proof.
    intros Hp M Hk. apply main_member; [reflexivity|reflexivity|intros rest; apply (heads_operand a _ rest M)|].
    intros f Hn rest Hnl. cbn [need] in *. cbn [print_toks]. rewrite <- app_assoc. fold (mwp np ge a).
    destruct (is_normalized_ident k) eqn:En.
    - destruct (operand_acc a Hp M f ltac:(lia) ([TDot; TIdent k] ++ rest) eq_refl) as (n0 & Hn0 & He).
      destruct n0 as [|n]; [lia|]. exists n. split; [lia|].
      rewrite He. apply access_dot; [apply normalized_unreserved; exact En|exact Hnl].
    - destruct (operand_acc a Hp M f ltac:(lia) ([TLBrack; tstr np ge k; TRBrack] ++ rest) eq_refl) as (n0 & Hn0 & He).
      destruct n0 as [|n]; [lia|]. exists n. split; [lia|].
      rewrite He. apply access_index; [|apply unescape_opt_escape; exact Hk].
      destruct f as [|f']; [lia|]. apply (str_tok_at (R f') f' 0); [lia|reflexivity].
  Qed.

  Lemma primary_case e : level e = 7%nat -> SP e = EExpr e -> (forall rest, heads_ok (PT e ++ rest)) ->
    (forall f, (need e <= f)%nat -> forall rest, parse_primary (R f) f (PT e ++ rest) = Some (EExpr e, rest)) ->
    main e.
  Proof.
    intros E7 Es Hh H. apply main_member; [exact E7|exact Es|exact Hh|].
    intros f Hn rest _. exists f. split; [lia|]. destruct (access_start rest) eqn:Ha.
    - eapply member_access; [apply H; exact Hn|exact Ha|intros n; discriminate|reflexivity].
    - rewrite (member_no_access _ _ _ _ _ (H f Hn rest) Ha). symmetry. apply access_stop. exact Ha.
  Qed.

  Lemma set_case items : Forall (fun x => printable x = true /\ main x) items -> main (SetE items).
  Proof.
    intros HF. apply primary_case; try reflexivity; [intros rest; repeat split|].
    intros f Hn rest. rewrite need_set in Hn.
    cbn [print_toks app]. rewrite <- app_assoc. cbn [app parse_primary].
    rewrite args_brack; [reflexivity|exact HF| |pose proof (needs_length items); lia].
    intros x Hx. pose proof (needs_In x items Hx). lia.
  Qed.

  Definition entry (kv : str * expr) : list token := key_tok np ge (fst kv) :: TColon :: PT (snd kv).
  Lemma PT_record items : PT (RecordE items) = TLBrace :: commas (map entry items) ++ [TRBrace].
  Proof.
    cbn [print_toks]. f_equal. f_equal. f_equal.
    induction items as [|[k v] l IH]; [reflexivity|]. cbn [map entry fst snd]. rewrite <- IH. reflexivity.
  Qed.

  Lemma key_tok_parses f k rest : wf_str k = true -> follow_ok 0 rest = true ->
    exists rk, R (S f) (key_tok np ge k :: rest) = Some (rk, rest) /\ into_valid_attr rk = Some k.
  Proof.
    intros Hk Hr. unfold key_tok. destruct (is_normalized_ident k) eqn:En.
    - pose proof (normalized_unreserved k En) as Hu.
      destruct (follow7_no_access rest (follow_mono 0 7 rest Hr ltac:(lia))) as [_ Hnp].
      destruct (ident_primary (R f) f k rest Hu Hnp) as (rk & Hprim & Hv & _).
      exists rk. split; [|exact Hv]. cbn [parse_expr]. change (parse_expr_body (R f) f) with (parse_at 0 (R f) f).
      apply primary_at; [exact Hprim|lia|exact Hr|reflexivity|].
      cbn [not_if_head]. rewrite (proj2 (proj2 (unreserved_not_kw k Hu))). reflexivity.
    - exists (EStr (escape_debug np ge k)). split; [|cbn [into_valid_attr]; apply unescape_opt_escape; exact Hk].
      cbn [parse_expr]. unfold tstr. apply (str_tok_at (R f) f 0); [lia|exact Hr].
  Qed.

  Lemma recinits_ok items f :
    Forall (fun kv => wf_str (fst kv) = true /\ printable (snd kv) = true /\ main (snd kv)) items ->
    (forall kv, In kv items -> (need (snd kv) < f)%nat) ->
    forall n rest, (length items <= n)%nat ->
    recinits_loop (R (S f)) n (commas (map entry items) ++ TRBrace :: rest) = Some (items, rest).
  Proof.
    intros HF. induction HF as [|[k v] l (Hk & Hp & M) HF IH]; intros Hn n rest Hl.
    - cbn [map commas app]. apply recinits_nil.
    - destruct n as [|n']; [cbn in Hl; lia|]. cbn [fst snd] in *.
      assert (need v < f)%nat as Hnv by (apply (Hn (k, v)); left; reflexivity).
      assert (exists s, key_tok np ge k = TIdent s \/ key_tok np ge k = TStr s) as Hh
        by (unfold key_tok, tstr; destruct (is_normalized_ident k); eexists; [left|right]; reflexivity).
      assert (forall X, starts_with_if (key_tok np ge k :: X) = false) as Hif.
      { intros X. unfold key_tok. destruct (is_normalized_ident k) eqn:En; [|reflexivity].
        cbn [starts_with_if]. apply (unreserved_not_kw k (normalized_unreserved k En)). }
      cbn [map]. rewrite commas_cons. cbn [entry fst snd app].
      destruct (key_tok_parses f k (TColon :: PT v ++ after_first (map entry l) (TRBrace :: rest)) Hk eq_refl)
        as (rk & Hrk & Hv).
      erewrite recinits_cons; [|exact Hh|apply Hif|exact Hrk|exact Hv
                               |apply (top v Hp M (S f)); [lia|]|apply into_expr_sp; exact Hp].
      + destruct l as [|kv2 l']; cbn [map after_first]; [reflexivity|].
        rewrite IH; [reflexivity| |cbn [length] in *; lia]. intros x Hx. apply Hn. right. exact Hx.
      + destruct l; reflexivity.
  Qed.

  Lemma record_case items :
    Forall (fun kv => wf_str (fst kv) = true /\ printable (snd kv) = true /\ main (snd kv)) items ->
    sorted_keys items = true -> main (RecordE items).
  Proof.
    intros HF Hsorted. apply primary_case; try reflexivity; [intros rest; rewrite PT_record; repeat split|].
    intros f Hn rest. rewrite need_record, needs_r_map in Hn.
    rewrite PT_record. cbn [app]. rewrite <- app_assoc. cbn [app parse_primary].
    destruct f as [|f']; [lia|].
    rewrite recinits_ok; [|exact HF| |pose proof (needs_length (map snd items)) as Hl; rewrite map_length in Hl; lia].
    - rewrite (nodup_sorted items Hsorted), (sort_sorted items Hsorted). reflexivity.
    - intros x Hx. pose proof (needs_In _ _ (in_map snd _ _ Hx)). lia.
  Qed.

  Lemma args_main l : Forall (fun e => printable e = true -> main e) l -> forallb printable l = true ->
    Forall (fun e => printable e = true /\ main e) l.
  Proof.
    induction 1 as [|x l Hx HF IH]; intros H; [constructor|].
    cbn [forallb] in H. apply andb_true_iff in H. destruct H as [A B].
    constructor; [split; [exact A|apply Hx; exact A]|apply IH; exact B].
  Qed.

  Lemma entries_main l : Forall (fun kv => printable (snd kv) = true -> main (snd kv)) l ->
    forallb (fun kv => wf_str (fst kv) && printable (snd kv)) l = true ->
    Forall (fun kv => wf_str (fst kv) = true /\ printable (snd kv) = true /\ main (snd kv)) l.
  Proof.
    induction 1 as [|x l Hx HF IH]; intros H; [constructor|].
    cbn [forallb] in H. apply andb_true_iff in H as [[W Pp]%andb_true_iff B].
    constructor; [|apply IH; exact B].
    split; [exact W|]. split; [exact Pp|]. apply Hx; exact Pp.
  Qed.

  Theorem main_all e : printable e = true -> main e.
  Proof.
    induction e as [p|v|s|n ty|c IHc t IHt e IHe|a IHa b IHb|a IHa b IHb|op a IHa|op a IHa b IHb
                   |fn args IHargs|a IHa k|a IHa k|a IHa p|a IHa t|items IHitems|items IHitems] using expr_ind';
      intros Hp; cbn [printable] in Hp; try discriminate;
      repeat match type of Hp with (_ && _) = true => apply andb_true_iff in Hp; destruct Hp as [Hp ?H] end.
    - apply leaf_case; [exact I|exact Hp].
    - apply leaf_case; [exact I|exact Hp].
    - apply leaf_case; [exact I|exact Hp].
    - apply if_case; auto.
    - apply and_case; auto. apply negb_true_iff; assumption.
    - apply or_case; auto. apply negb_true_iff; assumption.
    - destruct op; [apply not_case|apply neg_case|apply isEmpty_case]; auto.
    - destruct op; [apply rel_case|apply rel_case|apply rel_case|apply add_case|apply sub_case|apply mul_case
                   |apply rel_case|apply method_binop_case..]; auto.
    - apply ext_case; [exact Hp|apply args_main; assumption].
    - apply getattr_case; auto.
    - apply has_case; auto.
    - apply like_case; auto.
    - apply is_case; auto.
    - apply set_case. apply args_main; assumption.
    - apply record_case; [apply entries_main|]; assumption.
  Qed.

  Lemma mwp_length x : (length (PT x) <= length (MWP x))%nat.
  Proof. unfold mwp, wrapt. destruct (bare_operand x); cbn [length]; rewrite ?app_length; cbn [length]; lia. Qed.

  Lemma left_length (c : bool) x : (length (PT x) <= length (if c then PT x else MWP x))%nat.
  Proof. destruct c; [lia|apply mwp_length]. Qed.

  Lemma commas_len l : Forall (fun e => (need e <= length (PT e))%nat) l ->
    (needs l <= length (commas (map PT l)) + 1)%nat.
  Proof.
    induction 1 as [|x l Hx HF IH]; [cbn; lia|]. destruct l as [|y l'].
    - cbn [map commas needs]. lia.
    - cbn [map]. change (commas (PT x :: PT y :: map PT l')) with (PT x ++ TComma :: commas (map PT (y :: l'))).
      rewrite app_length. cbn [length]. cbn [needs] in *. lia.
  Qed.

  Lemma commas_len_r l : Forall (fun kv => (need (snd kv) <= length (PT (snd kv)))%nat) l ->
    (needs_r l <= length (commas (map (entry) l)) + 1)%nat.
  Proof.
    induction 1 as [|x l Hx HF IH]; [cbn; lia|]. destruct l as [|y l'].
    - cbn [map commas needs_r]. unfold entry. cbn [length]. lia.
    - cbn [map]. change (commas (entry x :: entry y :: map (entry) l'))
        with (entry x ++ TComma :: commas (map (entry) (y :: l'))).
      rewrite app_length. unfold entry at 1. cbn [length]. cbn [needs_r] in *. lia.
  Qed.

  Lemma need_le_length e : (need e <= length (PT e))%nat.
  Proof.
    induction e as [p|v|s|n ty|c IHc t IHt e IHe|a IHa b IHb|a IHa b IHb|op a IHa|op a IHa b IHb
                   |fn args IHargs|a IHa k|a IHa k|a IHa p|a IHa t|items IHitems|items IHitems] using expr_ind';
      try (pose proof (mwp_length a)); try (pose proof (mwp_length b)).
    - destruct p as [b|z|s|u]; cbn [need print_toks prim_toks].
      + destruct b; cbn; lia.
      + destruct (z <? 0)%Z; cbn; lia.
      + cbn; lia.
      + unfold uid_toks. rewrite app_length. cbn [length]. lia.
    - cbn; lia.
    - destruct s; cbn; lia.
    - cbn; lia.
    - cbn [need print_toks]. repeat (rewrite app_length || cbn [length]). lia.
    - rewrite PT_and. pose proof (left_length (match a with And _ _ => true | _ => false end) a).
      cbn [need]. rewrite app_length. cbn [length]. lia.
    - rewrite PT_or. pose proof (left_length (match a with Or _ _ => true | _ => false end) a).
      cbn [need]. rewrite app_length. cbn [length]. lia.
    - destruct op; cbn [need print_toks length]; fold (mwp np ge a);
        repeat (rewrite app_length || cbn [length]); lia.
    - pose proof (left_length (same_assoc op a) a).
      cbn [need print_toks]. fold (mwp np ge a) (mwp np ge b). destruct (binop_tok op);
        repeat (rewrite app_length || cbn [length]); lia.
    - rewrite need_ext. cbn [print_toks]. destruct (is_method_style fn); destruct args as [|r args'];
        try (pose proof (commas_len _ IHargs); repeat (rewrite app_length || cbn [length]); lia).
      inversion IHargs as [|? ? Hr HF']; subst. pose proof (commas_len args' HF'). pose proof (mwp_length r).
      fold (mwp np ge r). cbn [needs]. repeat (rewrite app_length || cbn [length]). lia.
    - cbn [need print_toks]. fold (mwp np ge a). rewrite app_length.
      destruct (is_normalized_ident k); cbn [length]; lia.
    - cbn [need print_toks]. fold (mwp np ge a). rewrite app_length. cbn [length]. lia.
    - cbn [need print_toks]. fold (mwp np ge a). rewrite app_length. cbn [length]. lia.
    - cbn [need print_toks]. fold (mwp np ge a). rewrite app_length. cbn [length]. lia.
    - rewrite need_set. pose proof (commas_len items IHitems). cbn [print_toks].
      repeat (rewrite app_length || cbn [length]). lia.
    - rewrite need_record. pose proof (commas_len_r items IHitems). rewrite PT_record.
      repeat (rewrite app_length || cbn [length]). lia.
  Qed.

  Theorem expr_roundtrip_rest e rest :
    printable e = true -> follow_ok 0 rest = true ->
    parse_expr (S (length (PT e ++ rest))) (PT e ++ rest) = Some (SP e, rest) /\ into_expr (SP e) = Some e.
  Proof.
    intros Hp Hr. split; [|apply into_expr_sp; exact Hp].
    apply (top e Hp (main_all e Hp)); [|exact Hr].
    pose proof (need_le_length e). rewrite app_length. lia.
  Qed.

  Theorem expr_roundtrip e :
    printable e = true -> parse_expr_toks (PT e) = Some e.
  Proof.
    intros Hp. destruct (expr_roundtrip_rest e [] Hp eq_refl) as [H Hi].
    rewrite app_nil_r in H. unfold parse_expr_toks. rewrite H. exact Hi.
  Qed.
End Main.
