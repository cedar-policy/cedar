(* On `tpe_fragment` a typechecked expression cannot error at all on a request of the environment: the only
   errors the fragment can raise syntactically are type errors and missing attributes, and C03's soundness
   theorem (TypecheckMain.tc_sound, on the larger in_fragment) excludes both. *)
From Cedar Require Import Typecheck TypecheckProofs TypecheckMain.

(* in_fragment also has arithmetic, entity access paths, ..., whose evaluation CAN fail with the permitted errors
   overflow / missing entity *)
Fixpoint tpe_fragment (e : expr) : bool :=
  match e with
  | Lit _ | Var _ => true
  | And a b | Or a b | BinApp BEq a b => tpe_fragment a && tpe_fragment b
  | UnApp UNot a => tpe_fragment a
  | HasAttr (Var Context) _ | GetAttr (Var Context) _ => true
  | _ => false
  end.

Lemma tpe_fragment_inv e : tpe_fragment e = true ->
  match e with
  | Lit _ | Var _ => True
  | And a b | Or a b => tpe_fragment a = true /\ tpe_fragment b = true
  | UnApp op a => op = UNot /\ tpe_fragment a = true
  | BinApp op a b => op = BEq /\ tpe_fragment a = true /\ tpe_fragment b = true
  | HasAttr x _ | GetAttr x _ => x = Var Context
  | _ => False
  end.
Proof.
  destruct e; cbn [tpe_fragment]; try discriminate; auto using andb_prop.
  - destruct op; try discriminate; auto.
  - destruct op; try discriminate. intros H. split; [reflexivity|apply andb_prop, H].
  - destruct e; try discriminate. destruct v; try discriminate. reflexivity.
  - destruct e; try discriminate. destruct v; try discriminate. reflexivity.
Qed.

Lemma tpe_fragment_in_fragment e : tpe_fragment e = true -> in_fragment e = true.
Proof.
  induction e; intros H; apply tpe_fragment_inv in H; try contradiction; cbn [in_fragment].
  - reflexivity.
  - reflexivity.
  - destruct H as [Ha Hb]. rewrite IHe1, IHe2; auto.
  - destruct H as [Ha Hb]. rewrite IHe1, IHe2; auto.
  - apply IHe, H.
  - destruct H as [-> [Ha Hb]]. rewrite IHe1, IHe2; auto.
  - rewrite H. reflexivity.
  - rewrite H. reflexivity.
Qed.

(* closed under `bind`, so the evaluator's equations give it of an expression from its parts *)
Definition typed_errs {A} (x : res A) : Prop := forall c, x = Err c -> c = ErrType \/ c = ErrAttrMissing.

Lemma typed_errs_ok {A} (v : A) : typed_errs (Ok v).
Proof. discriminate. Qed.
Lemma typed_errs_bind {A B} (x : res A) (f : A -> res B) :
  typed_errs x -> (forall v, typed_errs (f v)) -> typed_errs (bind x f).
Proof.
  destruct x as [v|c]; intros Hx Hf; [apply Hf|].
  intros c' E. apply Hx. inversion E. reflexivity.
Qed.
Lemma typed_errs_as_bool v : typed_errs (as_bool v).
Proof. intros c. destruct v as [[]| | |]; cbn; intros E; inversion E; auto. Qed.

Lemma typed_errs_bool {B} (x : res value) (f : bool -> res B) :
  typed_errs x -> (forall b, typed_errs (f b)) -> typed_errs (do v <- x; do b <- as_bool v; f b).
Proof.
  intros Hx Hf. apply typed_errs_bind; [exact Hx|intros v]. apply typed_errs_bind; [apply typed_errs_as_bool|exact Hf].
Qed.

Lemma fragment_typed_errs q es e : tpe_fragment e = true -> typed_errs (eval [] q es e).
Proof.
  induction e; intros H; apply tpe_fragment_inv in H; try contradiction; cbn [eval].
  - apply typed_errs_ok.
  - apply typed_errs_ok.
  - destruct H as [Ha Hb]. apply typed_errs_bool; [auto|intros [|]]; [|apply typed_errs_ok].
    apply typed_errs_bool; [auto|intros y]. apply typed_errs_ok.
  - destruct H as [Ha Hb]. apply typed_errs_bool; [auto|intros [|]]; [apply typed_errs_ok|].
    apply typed_errs_bool; [auto|intros y]. apply typed_errs_ok.
  - destruct H as [-> Ha]. apply typed_errs_bool; [auto|intros x]. apply typed_errs_ok.
  - destruct H as [-> [Ha Hb]].
    apply typed_errs_bind; [auto|intros va]. apply typed_errs_bind; [auto|intros vb]. apply typed_errs_ok.
  - rewrite H. cbn. destruct (lookup a (rcontext q)); [apply typed_errs_ok|]. intros c E. inversion E; auto.
  - rewrite H. apply typed_errs_ok.
Qed.

(* the hypotheses are those of C03's tc_sound *)
Theorem noerr_from_typing m sch env q es :
  schema_wf sch = true ->
  (forall t, is_action_type t = true -> find_etype sch t = None) ->
  decl_ty_ok (re_context env) = true ->
  env_ok env q ->
  store_ok sch es ->
  forall e, tpe_fragment e = true ->
  forall cs t cs', caps_hold q es cs -> tc m sch env cs e = Some (t, cs') ->
  exists v, eval [] q es e = Ok v /\ TypeConforms v t.
Proof.
  intros Hwf Hact Hctx Henv Hst e Hf cs t cs' Hc Ht.
  destruct (tc_sound m sch env q es Hwf Hact Hctx Henv Hst e (tpe_fragment_in_fragment e Hf) cs t cs' Hc Ht)
    as [_ [[c [He Ha]]|[v [He [Hv _]]]]].
  - exfalso. destruct (fragment_typed_errs q es e Hf c He) as [->| ->];
      destruct Ha as [Ha|[Ha|Ha]]; discriminate Ha.
  - eauto.
Qed.

(* with TPELink.reval_of_texpr, what TPESound.Side asks of an operand of && / ||: `boolish`, and no error *)
Corollary bool_noerr_from_typing m sch env q es :
  schema_wf sch = true ->
  (forall t, is_action_type t = true -> find_etype sch t = None) ->
  decl_ty_ok (re_context env) = true ->
  env_ok env q ->
  store_ok sch es ->
  forall e, tpe_fragment e = true ->
  forall cs x cs', caps_hold q es cs -> tc m sch env cs e = Some (TBool x, cs') ->
  exists b, eval [] q es e = Ok (VBool b).
Proof.
  intros Hwf Hact Hctx Henv Hst e Hf cs x cs' Hc Ht.
  destruct (noerr_from_typing m sch env q es Hwf Hact Hctx Henv Hst e Hf cs _ cs' Hc Ht) as [v [He Hv]].
  destruct (conf_bool v x Hv) as [b [-> _]]. eauto.
Qed.
