(* C03 — strict validation is sound (and not vacuous): property theorems on the model.

   Proved, for BOTH validation modes, every well-formed schema, request environment, request and store:
     c03_sound_partial        tc accepts e (in_fragment e), the request is one of the environment, every entity of
                              the store conforms to the schema (EntityConforms of Conform.v, = the boolean checker
                              conf_entity by ConformProofs.conf_entity_iff: c03_store_ok_from_checker), the prior
                              capabilities hold
                              =>  eval e is a permitted error (missing entity / overflow / extension) or a value
                              inhabiting the assigned type (TypeConforms), a `true` result justifies the output
                              capabilities, and the capabilities of a True-typed expression hold unconditionally
     c03_impossible_partial   an expression typed False never evaluates to true
     c03_policy_sound_partial an accepted condition (Success / Irrelevant) evaluates to a boolean or a permitted error
     c03_strict_in_permissive_partial   strict-accepted => permissive-accepted with the same type and capabilities
   "partial" = the syntactic fragment TypecheckMain.in_fragment:
     literals, variables, && and || with full capability flow (union / intersection, short-circuit singleton
     typing), !, ==, if-then-else with singleton short-circuit typing and capability flow (branches: any
     boolean-rooted form of the fragment),
     `has` and `.` on access paths (variable followed by attribute selections) over records AND entities:
     required / optional attributes, optional ones behind capabilities, nested records, entity-typed attributes,
     open / closed types, absent entities; integer arithmetic (+, -, *, unary -: value or overflow); < and <=
     (longs, datetime, duration); like; is; isEmpty, contains, containsAll, containsAny.
   Not in the fragment (see notes/C03.md): attribute access on non-path expressions, non-boolean `if` branches,
   tags, in, extension calls, set and record literals. *)
From Cedar Require Import Typecheck BaseFacts ConformProofs TypecheckRules TypecheckProofs TypecheckMain
  TypecheckModes TypecheckSimple TypecheckSub.

Theorem c03_sound_partial :
  forall m sch env q es,
  schema_wf sch = true -> (forall t, is_action_type t = true -> find_etype sch t = None) ->
  decl_ty_ok (re_context env) = true -> env_ok env q -> store_ok sch es ->
  forall e, in_fragment e = true ->
  forall cs t cs', caps_hold q es cs -> tc m sch env cs e = Some (t, cs') -> sound_result q es e t cs'.
Proof. exact tc_sound. Qed.
Print Assumptions c03_sound_partial.

Theorem c03_impossible_partial :
  forall m sch env q es,
  schema_wf sch = true -> (forall t, is_action_type t = true -> find_etype sch t = None) ->
  decl_ty_ok (re_context env) = true -> env_ok env q -> store_ok sch es ->
  forall e cs cs', in_fragment e = true -> caps_hold q es cs ->
  tc m sch env cs e = Some (TBool BFalse, cs') -> eval [] q es e <> Ok (VBool true).
Proof.
  intros m sch env q es Hwf Hact Hctx Henv Hstore e cs cs' Hf Hcs Htc Hev.
  destruct (tc_sound m sch env q es Hwf Hact Hctx Henv Hstore e Hf _ _ _ Hcs Htc)
    as [_ [(c & He & _)|(v & He & Hv & _)]].
  - rewrite Hev in He. discriminate He.
  - rewrite Hev in He. inversion He; subst. inversion Hv.
Qed.
Print Assumptions c03_impossible_partial.

Theorem c03_policy_sound_partial :
  forall m sch env q es,
  schema_wf sch = true -> (forall t, is_action_type t = true -> find_etype sch t = None) ->
  decl_ty_ok (re_context env) = true -> env_ok env q -> store_ok sch es ->
  forall e t, in_fragment e = true ->
  tc_env m sch env e = EnvSuccess t \/ tc_env m sch env e = EnvIrrelevant ->
  (exists c, eval [] q es e = Err c /\ allowed_err c) \/ (exists b, eval [] q es e = Ok (VBool b)).
Proof.
  intros m sch env q es Hwf Hact Hctx Henv Hstore e t Hf Hok. unfold tc_env in Hok.
  destruct (expect (tc m sch env [] e) [TBool BAny]) as [[t0 c0]|] eqn:E; [|destruct Hok; discriminate].
  apply expect_inv in E. destruct E as [E Hs].
  destruct (tc_sound m sch env q es Hwf Hact Hctx Henv Hstore e Hf _ _ _ (caps_hold_nil q es) E)
    as [_ [H|(v & He & Hv & _)]]; [left; exact H|].
  destruct (bshape_value _ _ (sub_bool_shape _ Hs) Hv) as [b ->]. right. eauto.
Qed.
Print Assumptions c03_policy_sound_partial.

Theorem c03_strict_in_permissive_partial :
  forall sch env e, in_fragment e = true ->
  forall cs r, tc Strict sch env cs e = Some r -> tc Permissive sch env cs e = Some r.
Proof. exact strict_in_permissive_fragment. Qed.
Print Assumptions c03_strict_in_permissive_partial.

(* non-vacuity: the declarative judgement `Simple` (TypecheckSimple.v: declared accesses, == / < at equal scalar
   types, has, !, ||, and the documented guard idioms `e has a && ..`, `if e has a then .. else ..`, nested
   `e has a && e.a has b && ..`; it does not mention tc) implies acceptance by STRICT typechecking *)
Theorem c03_accepts_guarded :
  forall sch env cs e, Simple sch env cs e -> exists x c, tc Strict sch env cs e = Some (TBool x, c).
Proof. exact simple_accepted. Qed.
Print Assumptions c03_accepts_guarded.

(* the subtype relation of types.rs is sound over ALL types (nested records, sets, entity LUBs, singleton
   booleans), in both modes: a value of a type inhabits every well-formed (duplicate-free record keys) supertype.
   (First half of the lub/subtype soundness needed for `if` with arbitrary branches; the upper-bound property of
   `lub` on its structural record branch is not proved.) *)
Theorem c03_subty_sound :
  forall a m b v, wf_ty b = true -> subty m a b = true -> TypeConforms v a -> TypeConforms v b.
Proof. exact subty_sound. Qed.
Print Assumptions c03_subty_sound.

(* the store hypothesis is what the implementation-side checker (model: Conform.conf_entity) establishes *)
Theorem c03_store_ok_from_checker :
  forall sch es, schema_wf sch = true ->
  (forall u d, find_entity u es = Some d -> conf_entity sch (u, d) = None) -> store_ok sch es.
Proof. intros sch es Hwf H u d Hf. apply (conf_entity_iff sch (u, d) Hwf). apply H. exact Hf. Qed.
Print Assumptions c03_store_ok_from_checker.

(* non-vacuity: the hypotheses are satisfiable, the guarded idioms are accepted, their unguarded,
   wrong-side-of-|| and after-! variants are rejected (strict mode) *)
Definition ex_user : etype := [s2str "User"].
Definition ex_sch : schema :=
  mkSchema [(ex_user, mkEtypeInfo [(s2str "o", (TLong, false)); (s2str "r", (TLong, true))] false None [] None)] [].
Definition ex_ctx : ty := TRecord [(s2str "n", (TLong, true)); (s2str "o", (TLong, false))] false.
Definition ex_env : reqenv := mkReqEnv ex_user (mkUid [s2str "Action"] (s2str "view")) ex_user ex_ctx None None.
Definition ex_has := HasAttr (Var Context) (s2str "o").
Definition ex_use := BinApp BEq (GetAttr (Var Context) (s2str "o")) (GetAttr (Var Context) (s2str "n")).
Definition ex_phas := HasAttr (Var Principal) (s2str "o").
Definition ex_puse := BinApp BEq (GetAttr (Var Principal) (s2str "o")) (GetAttr (Var Principal) (s2str "r")).

Example c03_accepts_guarded_example :
  in_fragment (And ex_has ex_use) = true /\
  tc Strict ex_sch ex_env [] (And ex_has ex_use) = Some (TBool BAny, [cap_attr (Var Context) (s2str "o")]) /\
  in_fragment (If ex_phas ex_puse (Lit (PBool false))) = true /\
  tc Strict ex_sch ex_env [] (If ex_phas ex_puse (Lit (PBool false))) = Some (TBool BAny, []) /\
  tc Strict ex_sch ex_env [] (And ex_phas ex_puse) = Some (TBool BAny, [cap_attr (Var Principal) (s2str "o")]).
Proof. repeat split; vm_compute; reflexivity. Qed.

Example c03_simple_example :
  Simple ex_sch ex_env [] (And ex_phas ex_puse) /\
  Simple ex_sch ex_env [] (If ex_has ex_use (Lit (PBool false))).
Proof.
  assert (Hattr : forall cs v tp a req,
            ty_of_var ex_sch ex_env v = Some tp -> er tp = true -> lookup_attr_ty ex_sch tp a = Some (TLong, req) ->
            req || caps_mem (cap_attr (Var v) a) cs = true -> Access ex_sch ex_env cs (GetAttr (Var v) a) TLong).
  { intros cs v tp a req Hv He Hl Hg. apply (A_attr _ _ _ _ tp a TLong req); [apply A_var, Hv|exact He|exact Hl|].
    destruct req; [left; reflexivity|right; exact Hg]. }
  split.
  - apply (S_guard_and _ _ _ _ (ty_entity ex_user) _ TLong false); [apply A_var; reflexivity|reflexivity|reflexivity|].
    apply (S_eq _ _ _ _ _ TLong); [eapply Hattr; reflexivity|eapply Hattr; reflexivity|reflexivity].
  - apply (S_guard_if _ _ _ _ ex_ctx _ TLong false); [apply A_var; reflexivity|reflexivity|reflexivity| |apply S_bool].
    apply (S_eq _ _ _ _ _ TLong); [eapply Hattr; reflexivity|eapply Hattr; reflexivity|reflexivity].
Qed.

Example c03_rejects_unguarded_example :
  tc Strict ex_sch ex_env [] ex_use = None /\ tc Strict ex_sch ex_env [] (Or ex_has ex_use) = None /\
  tc Strict ex_sch ex_env [] (And (UnApp UNot ex_has) ex_use) = None /\
  tc Strict ex_sch ex_env [] ex_puse = None /\
  tc Strict ex_sch ex_env [] (If ex_phas (Lit (PBool true)) ex_puse) = None.
Proof. repeat split; vm_compute; reflexivity. Qed.

Definition ex_q : request :=
  mkRequest (mkUid ex_user (s2str "a")) (mkUid [s2str "Action"] (s2str "view")) (mkUid ex_user (s2str "d"))
            [(s2str "n", VLong 1)].
Example c03_hypotheses_satisfiable :
  schema_wf ex_sch = true /\ (forall t, is_action_type t = true -> find_etype ex_sch t = None) /\
  decl_ty_ok (re_context ex_env) = true /\ env_ok ex_env ex_q /\ store_ok ex_sch [] /\ caps_hold ex_q [] [].
Proof.
  split; [vm_compute; reflexivity|]. split.
  { intros t Ht. unfold find_etype, ex_sch. cbn [s_etypes find_etype_in].
    destruct (name_eqb t ex_user) eqn:E; [|reflexivity].
    apply name_eqb_eq in E. subst t. vm_compute in Ht. discriminate Ht. }
  split; [vm_compute; reflexivity|]. split.
  { constructor; try reflexivity. apply TC_record.
    - intros k t [H|[H|[]]]; inversion H; subst; reflexivity.
    - intros k v [H|[]] t r Hl; inversion H; subst. vm_compute in Hl. inversion Hl; subst. constructor.
    - intros _ k v [H|[]]; inversion H; subst; reflexivity. }
  split; [intros u d H; discriminate H|apply caps_hold_nil].
Qed.
