(* Facts about Level.v (C16): the level checker is monotone in the maximum level; the uids within
   n hops of the request grow with n, and what an entity among them mentions is within n+1 hops;
   the level-n slice keeps the data of what it keeps; the operations that consult the store do so
   only for the entity they dereference. *)
From Coq Require Import Lia.
From Cedar Require Import Level BaseFacts EvalProofs TExprInd.

Lemma incl_concat_map {A B} (f f' : A -> list B) (l : list A) :
  Forall (fun x => incl (f' x) (f x)) l -> incl (concat (map f' l)) (concat (map f l)).
Proof.
  induction 1; cbn; [apply incl_refl | apply incl_app_app; assumption].
Qed.

Lemma concat_map_nil {A B} (f : A -> list B) l : concat (map f l) = [] -> Forall (fun x => f x = []) l.
Proof.
  induction l as [|x l IH]; cbn; intros H; constructor; apply app_eq_nil in H; [apply H | apply IH, H].
Qed.

Lemma rec_others_map a (f : texpr -> rec_result) items :
  rec_others a (map (fun kv => (fst kv, f (snd kv))) items) =
  concat (map (fun kv => if str_eqb a (fst kv) then [] else fst (f (snd kv))) items).
Proof.
  induction items as [|[k x] items IH]; [reflexivity|]. cbn [map fst snd rec_others concat].
  rewrite IH. destruct (f x), (str_eqb a k); reflexivity.
Qed.

(* the accessed attribute is checked as a target along the rest of the path, every other one as an
   expression *)
Lemma lv_record_path act n a p items t :
  lv act n (Some (a :: p)) (TERecord items t) =
  match lookup a items with
  | Some x => (fst (lv act n (Some p) x),
               concat (map (fun kv => if str_eqb a (fst kv) then [] else snd (lv act n None (snd kv))) items)
               ++ snd (lv act n (Some p) x))
  | None => (0%N, [LInternal])
  end.
Proof.
  cbn [lv]. unfold rec_pick.
  rewrite (lookup_map_snd (fun x => (snd (lv act n None x), lv act n (Some p) x))),
          (rec_others_map a (fun x => (snd (lv act n None x), lv act n (Some p) x))).
  destruct (lookup a items); reflexivity.
Qed.

Section Mono.
  Variable act : uid.
  Variables n n2 : N.
  Hypothesis Hle : (n <= n2)%N.

  (* one sub-expression under the two maxima: the same level, fewer errors under the larger *)
  Definition relaxed (r r2 : N * list lerr) : Prop := fst r = fst r2 /\ incl (snd r2) (snd r).

  Lemma relaxed_level r r2 : relaxed r r2 -> fst r = fst r2.
  Proof. intros H. apply H. Qed.
  Lemma relaxed_errors r r2 : relaxed r r2 -> incl (snd r2) (snd r).
  Proof. intros H. apply H. Qed.

  Lemma over_incl r r2 : relaxed r r2 -> incl (over n2 (fst r2)) (over n (fst r)).
  Proof.
    intros [<- _]. unfold over. destruct (N.leb_spec n2 (fst r)); destruct (N.leb_spec n (fst r));
      try apply incl_refl; try (intros x []); lia.
  Qed.

  Lemma incl_errors (l : list texpr) m :
    Forall (fun e => forall m, relaxed (lv act n m e) (lv act n2 m e)) l ->
    incl (concat (map (fun x => snd (lv act n2 m x)) l)) (concat (map (fun x => snd (lv act n m x)) l)).
  Proof. intros H. apply incl_concat_map. eapply Forall_impl; [|exact H]. intros x Hx. apply relaxed_errors, Hx. Qed.

  (* every arm of the checker builds its level and its errors from those of the parts by operations
     that respect the relation: these are the facts about them; `fin` relates by them two results
     given as pairs *)
  Hint Resolve relaxed_level relaxed_errors incl_refl incl_app_app over_incl incl_errors f_equal f_equal2 : lvmono.
  Ltac fin := lazymatch goal with |- relaxed (_, _) (_, _) => split; cbn [fst snd]; auto with lvmono end.

  Lemma lv_relaxed : forall e m, relaxed (lv act n m e) (lv act n2 m e).
  Proof.
    apply (texpr_ind' (fun e => forall m, relaxed (lv act n m e) (lv act n2 m e))); intros;
      destruct m as [path|].
    all: try solve [cbn [lv]; fin]. (* the arms without a test *)
    - (* a literal as a target *) cbn [lv]. destruct p; fin.
    - (* getTag as a target *) cbn [lv]. destruct op; fin.
    - (* a binary operator *) cbn [lv]. destruct (is_deref_binop op); fin.
    - (* getAttr as a target *)
      cbn [lv]. destruct (is_entity_oty (ty_of e)); [fin|]. destruct (is_record_oty (ty_of e)); [apply H | fin].
    - (* getAttr *) cbn [lv]. destruct (is_entity_oty (ty_of e)); [|destruct (is_record_oty (ty_of e))]; fin.
    - (* hasAttr *) cbn [lv]. destruct (is_entity_oty (ty_of e)); [|destruct (is_record_oty (ty_of e))]; fin.
    - (* a record literal as a target *)
      destruct path as [|a p]; [cbn [lv]; fin|]. rewrite !lv_record_path.
      destruct (lookup a items) as [x|] eqn:L; [|fin].
      pose proof (proj1 (Forall_forall _ _) H) as Hin. specialize (Hin _ (lookup_In _ _ _ L) (Some p)). fin.
      apply incl_app_app; [|auto with lvmono].
      apply incl_concat_map, Forall_forall. intros kv Hkv.
      destruct (str_eqb a (fst kv)); [apply incl_refl | apply relaxed_errors, (proj1 (Forall_forall _ _) H kv Hkv)].
    - (* a record literal *)
      cbn [lv]. fin. apply incl_concat_map. eapply Forall_impl; [|exact H]. intros kv Hx. apply relaxed_errors, Hx.
  Qed.
End Mono.

Lemma level_ok_mono_le act n n2 e : (n <= n2)%N -> level_ok act n e = true -> level_ok act n2 e = true.
Proof.
  intros Hle. unfold level_ok, level_errors. destruct (lv_relaxed act n n2 Hle e None) as [_ I].
  destruct (snd (lv act n None e)); [|discriminate]. intros _. rewrite (incl_l_nil I). reflexivity.
Qed.

Lemma level_ok_mono act n e : level_ok act n e = true -> level_ok act (N.succ n) e = true.
Proof. apply level_ok_mono_le, N.le_succ_diag_r. Qed.

Lemma uid_mem_In u l : uid_mem u l = true <-> In u l.
Proof. exact (existsb_eqb_In uid_eqb uid_eqb_eq u l). Qed.

Lemma reach_S es k front : reach es (S k) front = front ++ reach es k (hop es front).
Proof. reflexivity. Qed.

Lemma reach_mono_le es : forall k k' front, (k <= k')%nat -> incl (reach es k front) (reach es k' front).
Proof.
  induction k as [|k IH]; intros k' front Hle; [intros x []|].
  destruct k' as [|k']; [inversion Hle|]. rewrite !reach_S.
  apply incl_app_app; [apply incl_refl | apply IH, le_S_n, Hle].
Qed.

Lemma slice_monotone_le n m q es x : (n <= m)%nat -> In x (slice_at_level n q es) -> In x (slice_at_level m q es).
Proof.
  unfold slice_at_level. intros Hle H. apply filter_In in H as [H1 H2]. apply filter_In. split; [assumption|].
  apply uid_mem_In. apply (reach_mono_le _ _ _ _ Hle). apply uid_mem_In. assumption.
Qed.

(* an entity of the slice has exactly the data (attributes, tags, ancestor set) it has in the store;
   an entity outside the needed set is absent *)
Lemma slice_find n q es u :
  find_entity u (slice_at_level n q es) =
  if uid_mem u (reach es n (request_roots q)) then find_entity u es else None.
Proof.
  unfold slice_at_level. generalize (reach es n (request_roots q)) as R. intros R.
  induction es as [|[u' d] es IH]; cbn [filter find_entity fst]; [destruct (uid_mem u R); reflexivity|].
  destruct (uid_eqb u u') eqn:E.
  - apply uid_eqb_eq in E. subst u'. destruct (uid_mem u R) eqn:M; cbn [find_entity].
    + rewrite (proj2 (uid_eqb_eq u u) eq_refl). reflexivity.
    + exact IH.
  - destruct (uid_mem u' R); cbn [find_entity]; [rewrite E|]; exact IH.
Qed.

(* values reached by k hops only mention uids within k+1 hops *)
Lemma hop_incl es front u d : In u front -> find_entity u es = Some d -> incl (edata_uids d) (hop es front).
Proof.
  intros Hu Hf x Hx. unfold hop. apply in_flat_map. exists u. split; [assumption|]. rewrite Hf. assumption.
Qed.

Lemma reach_hop_closed es u d : forall n front,
  In u (reach es n front) -> find_entity u es = Some d -> incl (edata_uids d) (reach es (S n) front).
Proof.
  induction n as [|k IH]; intros front Hu Hf; [destruct Hu|].
  rewrite reach_S in Hu. rewrite (reach_S es (S k)). apply in_app_or in Hu as [Hu|Hu].
  - apply incl_appr. rewrite reach_S. apply incl_appl. eapply hop_incl; eassumption.
  - apply incl_appr. apply IH; assumption.
Qed.

Lemma root_in_slice n q es u : In u (request_roots q) ->
  find_entity u (slice_at_level (S n) q es) = find_entity u es.
Proof.
  intros H. rewrite slice_find, reach_S.
  rewrite (proj2 (uid_mem_In u _)); [reflexivity | apply in_or_app; left; assumption].
Qed.

Lemma value_uids_attrs r : value_uids (VRecord r) = attrs_uids r.
Proof.
  unfold attrs_uids. induction r as [|[k v] r IH]; [reflexivity|].
  cbn [flat_map snd]. rewrite <- IH. reflexivity.
Qed.

Lemma eval_var_uids q v : incl (value_uids (eval_var q v)) (request_roots q).
Proof.
  unfold request_roots. destruct v; cbn [eval_var].
  4: { rewrite value_uids_attrs. apply incl_appr, incl_refl. }
  all: intros x [<-|[]]; cbn; auto.
Qed.

(* only `in`, hasTag and getTag consult the store, and only for the entity on their left *)
Lemma binary_app_ext es1 es2 op a b :
  (is_deref_binop op = true -> forall u, a = VEntity u -> find_entity u es1 = find_entity u es2) ->
  binary_app es1 op a b = binary_app es2 op a b.
Proof.
  intros H. destruct op; try reflexivity.
  all: destruct a as [p| | |]; try reflexivity.
  all: destruct p; try reflexivity.
  all: cbn; unfold eval_in; rewrite (H eq_refl _ eq_refl); reflexivity.
Qed.

Lemma get_attr_ext es1 es2 a k :
  (forall u, a = VEntity u -> find_entity u es1 = find_entity u es2) -> get_attr es1 a k = get_attr es2 a k.
Proof.
  intros H. destruct a as [p| | |]; try reflexivity.
  destruct p; try reflexivity. cbn. rewrite (H _ eq_refl). reflexivity.
Qed.

Lemma has_attr_ext es1 es2 a k :
  (forall u, a = VEntity u -> find_entity u es1 = find_entity u es2) -> has_attr es1 a k = has_attr es2 a k.
Proof. intros H. rewrite !has_attr_get_attr, (get_attr_ext es1 es2 a k H). reflexivity. Qed.
