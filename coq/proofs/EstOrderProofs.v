(* sort_assoc yields strictly key-sorted lists: a list it leaves unchanged (BTreeMap order) has no
   duplicate keys. *)
From Cedar Require Import Printable BaseFacts SortProofs.
Open Scope Z_scope.

Lemma str_eqb_sym a b : str_eqb a b = str_eqb b a.
Proof. exact (BaseFacts.str_eqb_sym a b). Qed.

Section Sorted.
  Context {V : Type}.

  (* sorted_keys compares neighbours only: no transitivity is needed, only that a key neither smaller
     nor equal is greater *)
  Lemma insert_sorted_behind k0 (v0 : V) k v l :
    str_ltb k0 k = true -> sorted_keys ((k0, v0) :: l) = true ->
    sorted_keys ((k0, v0) :: insert_sorted k v l) = true.
  Proof.
    revert k0 v0. induction l as [|[k' v'] l IH]; intros k0 v0 H0 Hs.
    - cbn. rewrite H0. reflexivity.
    - change (str_ltb k0 k' && sorted_keys ((k', v') :: l) = true) in Hs.
      apply andb_true_iff in Hs as [H1 H2]. cbn [insert_sorted].
      destruct (str_ltb k k') eqn:E1; [|destruct (str_eqb k k') eqn:E2].
      + change (str_ltb k0 k && (str_ltb k k' && sorted_keys ((k', v') :: l)) = true).
        rewrite H0, E1. exact H2.
      + apply str_eqb_eq in E2. subst k'.
        change (str_ltb k0 k && sorted_keys ((k, v) :: l) = true). rewrite H0. exact H2.
      + change (str_ltb k0 k' && sorted_keys ((k', v') :: insert_sorted k v l) = true).
        rewrite H1. apply IH; [apply str_ltb_total|]; assumption.
  Qed.

  Lemma insert_sorted_keys k (v : V) l : sorted_keys l = true -> sorted_keys (insert_sorted k v l) = true.
  Proof.
    destruct l as [|[k' v'] l]; [reflexivity|]. intros Hs. cbn [insert_sorted].
    destruct (str_ltb k k') eqn:E1; [|destruct (str_eqb k k') eqn:E2].
    - change (str_ltb k k' && sorted_keys ((k', v') :: l) = true). rewrite E1. exact Hs.
    - apply str_eqb_eq in E2. subst k'. exact Hs.
    - apply insert_sorted_behind; [apply str_ltb_total|]; assumption.
  Qed.

  Lemma fold_insert_sorted (l acc : list (str * V)) :
    sorted_keys acc = true ->
    sorted_keys (fold_left (fun a kv => insert_sorted (fst kv) (snd kv) a) l acc) = true.
  Proof. revert acc. induction l as [|kv l IH]; intros acc H; [exact H|]. apply IH, insert_sorted_keys, H. Qed.

  Lemma sort_assoc_sorted (l : list (str * V)) : sorted_keys (sort_assoc l) = true.
  Proof. apply fold_insert_sorted. reflexivity. Qed.

  Lemma sort_fix_nodup (l : list (str * V)) : sort_assoc l = l -> keys_nodup l = true.
  Proof. intros H. apply nodup_sorted. rewrite <- H. apply sort_assoc_sorted. Qed.
End Sorted.
