(* SortProofs.v — a strictly key-sorted association list is duplicate free and is a fixed point of
   sort_assoc (the BTreeMap view of record literals). *)
From Cedar Require Import Printable BaseFacts.

Section Sorted.
  Context {V : Type}.

  Lemma sorted_keys_cons (k : str) (v : V) k' v' l :
    sorted_keys ((k, v) :: (k', v') :: l) = str_ltb k k' && sorted_keys ((k', v') :: l).
  Proof. reflexivity. Qed.

  Lemma sorted_tail (kv : str * V) (l : list (str * V)) : sorted_keys (kv :: l) = true -> sorted_keys l = true.
  Proof.
    destruct kv as [k v]. destruct l as [|[k' v'] l]; [reflexivity|].
    rewrite sorted_keys_cons. intros H. apply andb_true_iff in H. apply H.
  Qed.

  Lemma sorted_head_lt (k : str) (v : V) l : sorted_keys ((k, v) :: l) = true ->
    forall kv, In kv l -> str_ltb k (fst kv) = true.
  Proof.
    revert k v. induction l as [|[k' v'] l IH]; intros k v H kv Hin; [contradiction|].
    rewrite sorted_keys_cons in H. apply andb_true_iff in H. destruct H as [Hlt H].
    destruct Hin as [<-|Hin]; [exact Hlt|].
    eapply str_ltb_trans; [exact Hlt|]. eapply IH; eassumption.
  Qed.

  Lemma insert_end (k : str) (v : V) acc :
    (forall a, In a acc -> str_ltb (fst a) k = true) -> insert_sorted k v acc = acc ++ [(k, v)].
  Proof.
    induction acc as [|[k' v'] acc IH]; intros H; [reflexivity|].
    cbn [insert_sorted app]. assert (str_ltb k' k = true) as Hl by (apply (H (k', v')); left; reflexivity).
    rewrite (str_ltb_asym _ _ Hl), str_eqb_sym, (str_ltb_neq _ _ Hl).
    rewrite IH; [reflexivity|]. intros a Ha. apply H. right. exact Ha.
  Qed.

  Lemma fold_sorted (l : list (str * V)) : forall acc, sorted_keys l = true ->
    (forall a b, In a acc -> In b l -> str_ltb (fst a) (fst b) = true) ->
    fold_left (fun acc kv => insert_sorted (fst kv) (snd kv) acc) l acc = acc ++ l.
  Proof.
    induction l as [|[k v] l IH]; intros acc Hs Hlt; [cbn; rewrite app_nil_r; reflexivity|].
    cbn [fold_left fst snd]. rewrite insert_end.
    - rewrite IH.
      + rewrite <- app_assoc. reflexivity.
      + eapply sorted_tail; exact Hs.
      + intros a b Ha Hb. apply in_app_or in Ha. destruct Ha as [Ha|[<-|[]]].
        * apply Hlt; [exact Ha|right; exact Hb].
        * cbn [fst]. eapply sorted_head_lt; eassumption.
    - intros a Ha. apply (Hlt a (k, v)); [exact Ha|left; reflexivity].
  Qed.

  Lemma sort_sorted (l : list (str * V)) : sorted_keys l = true -> sort_assoc l = l.
  Proof. intros H. unfold sort_assoc. rewrite fold_sorted; [reflexivity|exact H|intros a b []]. Qed.

  Lemma nodup_sorted (l : list (str * V)) : sorted_keys l = true -> keys_nodup l = true.
  Proof.
    induction l as [|[k v] l IH]; intros H; [reflexivity|]. cbn [keys_nodup]. unfold has_key.
    rewrite lookup_below; [|eapply sorted_head_lt; exact H]. cbn. apply IH. eapply sorted_tail. exact H.
  Qed.
End Sorted.
