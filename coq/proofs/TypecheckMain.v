(* TypecheckMain.v — C03: the proved fragment `in_fragment` and the main induction. *)
From Cedar Require Import Typecheck TypecheckProofs TypecheckIf TypecheckProofs2 TypecheckAttr.

Fixpoint in_fragment (e : expr) : bool :=
  match e with
  | Lit _ | Var _ => true
  | And a b | Or a b => in_fragment a && in_fragment b
  | BinApp BEq a b | BinApp BLess a b | BinApp BLessEq a b | BinApp BAdd a b | BinApp BSub a b | BinApp BMul a b
  | BinApp BContains a b | BinApp BContainsAll a b | BinApp BContainsAny a b =>
      in_fragment a && in_fragment b
  | UnApp _ a => in_fragment a
  | Like x _ | Is x _ => in_fragment x
  | If c x y => in_fragment c && in_fragment x && in_fragment y && boolish' x && boolish' y
  | HasAttr x _ | GetAttr x _ => is_path x
  | _ => false
  end.

Lemma is_path_frag x : is_path x = true -> in_fragment x = true.
Proof. destruct x; cbn; try discriminate; auto. Qed.

Lemma in_fragment_ind (P : expr -> Prop) :
  (forall p, P (Lit p)) -> (forall v, P (Var v)) ->
  (forall c x y, boolish' x = true -> boolish' y = true -> P c -> P x -> P y -> P (If c x y)) ->
  (forall a b, P a -> P b -> P (And a b)) -> (forall a b, P a -> P b -> P (Or a b)) ->
  (forall op a, P a -> P (UnApp op a)) ->
  (forall a b, P a -> P b -> P (BinApp BEq a b)) ->
  (forall op a b, op = BLess \/ op = BLessEq -> P a -> P b -> P (BinApp op a b)) ->
  (forall op a b, op = BAdd \/ op = BSub \/ op = BMul -> P a -> P b -> P (BinApp op a b)) ->
  (forall a b, P a -> P b -> P (BinApp BContains a b)) ->
  (forall op a b, op = BContainsAll \/ op = BContainsAny -> P a -> P b -> P (BinApp op a b)) ->
  (forall x a, is_path x = true -> P x -> P (GetAttr x a)) ->
  (forall x a, is_path x = true -> P x -> P (HasAttr x a)) ->
  (forall x p, P x -> P (Like x p)) -> (forall x t, P x -> P (Is x t)) ->
  forall e, in_fragment e = true -> P e.
Proof.
  intros HLit HVar HIf HAnd HOr HUn HEq HCmp HArith HCont HContAA HGet HHas HLike HIs.
  induction e; cbn [in_fragment]; intros Hf; try discriminate Hf; auto using is_path_frag.
  - apply andb_prop in Hf. destruct Hf as [Hf Hby]. apply andb_prop in Hf. destruct Hf as [Hf Hbx].
    apply andb_prop in Hf. destruct Hf as [Hf Hfy]. apply andb_prop in Hf. destruct Hf as [Hfc Hfx]. auto.
  - apply andb_prop in Hf. destruct Hf as [H1 H2]. auto.
  - apply andb_prop in Hf. destruct Hf as [H1 H2]. auto.
  - destruct op; try discriminate Hf; apply andb_prop in Hf; destruct Hf as [H1 H2]; auto 6.
Qed.

Theorem tc_sound m sch env q es :
  schema_wf sch = true -> (forall t, is_action_type t = true -> find_etype sch t = None) ->
  decl_ty_ok (re_context env) = true -> env_ok env q -> store_ok sch es ->
  forall e, in_fragment e = true -> IHfor m sch env q es e.
Proof.
  intros Hwf Hact Hctx Henv Hstore. apply in_fragment_ind.
  - apply sound_lit.
  - intros v. apply sound_var, Henv.
  - intros c x y Hbx Hby. apply sound_if_bool; apply boolish'_typed; assumption.
  - apply sound_and.
  - apply sound_or.
  - intros [| |]; [apply sound_not|apply sound_neg|apply sound_isempty].
  - intros a b. apply sound_eq, Henv.
  - apply sound_less.
  - apply sound_arith.
  - apply sound_contains.
  - apply sound_contains_aa.
  - apply (sound_getattr m sch env q es Hwf Hact Hctx Hstore).
  - apply (sound_hasattr m sch env q es Hwf Hact Hctx Hstore).
  - apply sound_like.
  - apply sound_is.
Qed.
