(* C16_Level.v — C16: level validation guarantees the level-n entity slice suffices.

   Model: model/Level.v — `lv` is LevelChecker::{check_expr_level, check_entity_deref_target_level}
   (level_validate.rs) on the typed expression of one request environment; `slice_at_level` is the
   slice defined in DESIGN.md C16.

   FULL on the model:
     c16_monotone                  raising n never turns acceptance into rejection (any n <= n2)
     c16_level_independent_of_max  the dereference level computed for a target does not depend on n
     c16_slice_subset              the slice is a sub-store
     c16_slice_monotone            slice n is contained in slice (n+1)
     c16_slice_keeps_data          an entity within n hops has, in the slice, exactly the record
                                   (attributes, tags, ancestor set) it has in the store; others are absent
     c16_slice_hop_closed          every uid mentioned by an entity of slice n is within n+1 hops
                                   (the invariant "values obtained by k hops mention uids at distance <= k+1")
     c16_slice_sound_base          one dereference applied directly to a request variable evaluates on the
                                   level-(n+1) slice as on the full store (no hypothesis on annotations)
   PARTIAL (everything below is proved for ALL constructors of typed expressions — literals, variables,
   slots, if, &&, ||, unary/binary operators incl. in / hasTag / getTag, extension calls, getAttr / hasAttr on
   entities and records, like, is, set and record literals with access paths — but UNDER THE HYPOTHESIS
   `te_ok`: the type annotations are sound, i.e. the target of every getAttr/hasAttr annotated with an entity
   type evaluates (if at all) to an entity and annotated with a record type to a record, and record
   literals have distinct keys.  That hypothesis is what C03 should deliver; C03's theorem covers
   only a small fragment, so it is NOT discharged here — hence `_partial`.  Conformance of the store is not
   needed beyond `te_ok`.):
     c16_target_distance_partial   the invariant: a dereference target accepted with level l evaluates on the
                                   full store to a value whose projection along the access path mentions only
                                   uids within l+1 hops of the request roots
     c16_between_partial           sandwich: ANY store that agrees with the full store on the entities within n
                                   hops (the slice, every store between slice and full store, and more)
                                   evaluates an expression accepted at level n exactly like the full store
     c16_slice_sound_partial       the instance for slice_at_level n
     c16_response_partial          lift to responses (Authz.is_authorized, the function C01's theorems
                                   characterise): same decision, determining policies and erroring policies
                                   (with error classes) on every such store, for policy lists whose
                                   conditions are erasures of accepted typed expressions *)
From Cedar Require Import Level LevelProofs LevelSound.

Theorem c16_monotone : forall act n n2 e,
  (n <= n2)%N -> level_ok act n e = true -> level_ok act n2 e = true.
Proof. exact level_ok_mono_le. Qed.
Print Assumptions c16_monotone.

Theorem c16_level_independent_of_max : forall act n n2 path e,
  fst (lv act n (Some path) e) = fst (lv act n2 (Some path) e).
Proof.
  intros act n n2 path e. destruct (N.le_ge_cases n n2) as [H|H].
  - exact (relaxed_level _ _ (lv_relaxed act n n2 H e (Some path))).
  - symmetry. exact (relaxed_level _ _ (lv_relaxed act n2 n H e (Some path))).
Qed.
Print Assumptions c16_level_independent_of_max.

Theorem c16_slice_subset : forall n q es x, In x (slice_at_level n q es) -> In x es.
Proof. intros n q es x H. apply filter_In in H. apply H. Qed.
Print Assumptions c16_slice_subset.

Theorem c16_slice_monotone : forall n q es x,
  In x (slice_at_level n q es) -> In x (slice_at_level (S n) q es).
Proof. intros n q es x. apply slice_monotone_le, Nat.le_succ_diag_r. Qed.
Print Assumptions c16_slice_monotone.

Theorem c16_slice_keeps_data : forall n q es u,
  find_entity u (slice_at_level n q es) =
  if uid_mem u (reach es n (request_roots q)) then find_entity u es else None.
Proof. exact slice_find. Qed.
Print Assumptions c16_slice_keeps_data.

Theorem c16_slice_hop_closed : forall n q es u d,
  find_entity u (slice_at_level n q es) = Some d ->
  forall x, In x (edata_uids d) -> uid_mem x (reach es (S n) (request_roots q)) = true.
Proof.
  intros n q es u d. rewrite slice_find. destruct (uid_mem u (reach es n (request_roots q))) eqn:M; [|discriminate].
  intros Hf x Hx. apply uid_mem_In. apply uid_mem_In in M. eapply reach_hop_closed; eassumption.
Qed.
Print Assumptions c16_slice_hop_closed.

Theorem c16_slice_sound_base : forall n q es sl v k op p,
  let s := slice_at_level (S n) q es in
  eval sl q s (GetAttr (Var v) k) = eval sl q es (GetAttr (Var v) k) /\
  eval sl q s (HasAttr (Var v) k) = eval sl q es (HasAttr (Var v) k) /\
  eval sl q s (BinApp op (Var v) (Lit p)) = eval sl q es (BinApp op (Var v) (Lit p)).
Proof.
  intros n q es sl v k op p.
  assert (A : forall u, eval_var q v = VEntity u ->
                        find_entity u (slice_at_level (S n) q es) = find_entity u es).
  { intros u Hu. apply root_in_slice, (eval_var_uids q v). rewrite Hu. left; reflexivity. }
  cbn. repeat split; [apply get_attr_ext | apply has_attr_ext | apply binary_app_ext; intros _]; exact A.
Qed.
Print Assumptions c16_slice_sound_base.

Theorem c16_target_distance_partial : forall sl q es n te path v v',
  te_ok sl q es te -> snd (lv (raction q) (N.of_nat n) (Some path) te) = [] ->
  eval sl q es (erase te) = Ok v -> proj path v = Some v' ->
  incl (value_uids v') (reach es (S (N.to_nat (fst (lv (raction q) (N.of_nat n) (Some path) te)))) (request_roots q)).
Proof.
  intros sl q es n te path v v' Hok He.
  destruct (proj2 (sound_all sl q es es n (fun _ _ => eq_refl) te) path Hok He) as [_ W]. exact (W v v').
Qed.
Print Assumptions c16_target_distance_partial.

Theorem c16_between_partial : forall sl q es st n te,
  (forall u, In u (reach es n (request_roots q)) -> find_entity u st = find_entity u es) ->
  te_ok sl q es te ->
  level_ok (raction q) (N.of_nat n) te = true ->
  eval sl q st (erase te) = eval sl q es (erase te).
Proof. exact between_sound. Qed.
Print Assumptions c16_between_partial.

Theorem c16_slice_sound_partial : forall sl q es n te,
  te_ok sl q es te -> level_ok (raction q) (N.of_nat n) te = true ->
  eval sl q (slice_at_level n q es) (erase te) = eval sl q es (erase te).
Proof. intros sl q es n te. apply between_sound, slice_agrees. Qed.
Print Assumptions c16_slice_sound_partial.

Theorem c16_response_partial : forall ps q es st n,
  (st = slice_at_level n q es \/
   forall u, In u (reach es n (request_roots q)) -> find_entity u st = find_entity u es) ->
  (forall p, In p ps ->
     exists te, erase te = pcondition p /\ te_ok (penv p) q es te /\ level_ok (raction q) (N.of_nat n) te = true) ->
  is_authorized ps q st = is_authorized ps q es.
Proof.
  intros ps q es st n H. apply response_between. destruct H as [->|H]; [apply slice_agrees | exact H].
Qed.
Print Assumptions c16_response_partial.

(* non-vacuity: `principal.manager.n < 7` (typed for principal : User) needs level 2 *)
Definition uU : uid := mkUid [s2str "User"] (s2str "a").
Definition uAct : uid := mkUid [s2str "Action"] (s2str "view").
Definition tUser : oty := Some (TEntity (ELub [[s2str "User"]])).
Definition ex_policy : texpr :=
  TEBinApp BLess
    (TEGetAttr (TEGetAttr (TEVar Principal tUser) (s2str "manager") tUser) (s2str "n") (Some TLong))
    (TELit (PLong 7) (Some TLong)) (Some (TBool BAny)).
Example ex_rejected_at_1 : level_ok uAct 1 ex_policy = false. Proof. vm_compute. reflexivity. Qed.
Example ex_accepted_at_2 : level_ok uAct 2 ex_policy = true. Proof. vm_compute. reflexivity. Qed.
Example ex_errors_at_0 : level_errors uAct 0 ex_policy = [LMax 2]. Proof. vm_compute. reflexivity. Qed.
(* a dereference hidden in a record literal and projected: {a: principal.manager}.a.n needs level 2 *)
Definition ex_record : texpr :=
  TEGetAttr (TEGetAttr (TERecord [(s2str "a", TEGetAttr (TEVar Principal tUser) (s2str "manager") tUser)]
                                 (Some (TRecord [(s2str "a", (TEntity (ELub [[s2str "User"]]), true))] false)))
                       (s2str "a") tUser) (s2str "n") (Some TLong).
Example ex_record_1 : level_ok uAct 1 ex_record = false. Proof. vm_compute. reflexivity. Qed.
Example ex_record_2 : level_ok uAct 2 ex_record = true. Proof. vm_compute. reflexivity. Qed.
(* the slice: a -> b -> c by `manager`; level 1 keeps a only, level 2 adds b *)
Definition uB : uid := mkUid [s2str "User"] (s2str "b").
Definition uC : uid := mkUid [s2str "User"] (s2str "c").
Definition ex_store : entities :=
  [(uU, mkEdata [(s2str "manager", VEntity uB)] [] []); (uB, mkEdata [(s2str "manager", VEntity uC)] [] [uC]);
   (uC, mkEdata [] [] [])].
Definition ex_req : request := mkRequest uU uAct uU [].
Example ex_slice_0 : map fst (slice_at_level 0 ex_req ex_store) = []. Proof. vm_compute. reflexivity. Qed.
Example ex_slice_1 : map fst (slice_at_level 1 ex_req ex_store) = [uU]. Proof. vm_compute. reflexivity. Qed.
Example ex_slice_2 : map fst (slice_at_level 2 ex_req ex_store) = [uU; uB]. Proof. vm_compute. reflexivity. Qed.
Example ex_slice_keeps : find_entity uB (slice_at_level 2 ex_req ex_store) = Some (mkEdata [(s2str "manager", VEntity uC)] [] [uC]).
Proof. vm_compute. reflexivity. Qed.

(* the soundness hypotheses are satisfiable and the level is tight: b.n = 3 *)
Definition ex_store2 : entities :=
  [(uU, mkEdata [(s2str "manager", VEntity uB)] [] []);
   (uB, mkEdata [(s2str "manager", VEntity uC); (s2str "n", VLong 3)] [] [uC]); (uC, mkEdata [] [] [])].
Example ex_te_ok : te_ok [] ex_req ex_store2 ex_policy.
Proof.
  cbn [te_ok ex_policy]. repeat split; intros Ht v Hv; vm_compute in Ht; try discriminate;
    vm_compute in Hv; inversion Hv; subst; eexists; reflexivity.
Qed.
Example ex_sound_2 :
  eval [] ex_req (slice_at_level 2 ex_req ex_store2) (erase ex_policy) = eval [] ex_req ex_store2 (erase ex_policy).
Proof. apply (c16_slice_sound_partial [] ex_req ex_store2 2 ex_policy ex_te_ok). vm_compute. reflexivity. Qed.
Example ex_full_value : eval [] ex_req ex_store2 (erase ex_policy) = Ok (VBool true).
Proof. vm_compute. reflexivity. Qed.
Example ex_level_tight : eval [] ex_req (slice_at_level 1 ex_req ex_store2) (erase ex_policy) = Err ErrEntityMissing.
Proof. vm_compute. reflexivity. Qed.
