(* C16: evaluation on any store that agrees with the full store on the entities within n hops of the
   request (in particular the level-n slice) equals evaluation on the full store, for every typed
   expression the level checker accepts at level n whose type annotations are sound (`te_ok`).

   Two notions carry the proof.  `same x`: x evaluates alike on the two stores; an operation that
   dereferences needs besides that the stores agree on the entity dereferenced (`same_target`).
   `within k path r`: what r evaluates to on the full store mentions, after projection along `path`,
   only uids within k hops of the request roots; one dereference adds one hop.

   Invariant (DESIGN C16), proved by induction over ALL constructors of typed expressions:
     P1 (check_entity_deref_target_level, access path `path`, computed level l, no error):
        (i)  l <= n  ->  same
        (ii) within (l+1) path
     P0 (check_expr_level, no error):  same. *)
From Coq Require Import Lia.
From Cedar Require Import Level BaseFacts EvalProofs AuthzProofs TExprInd LevelProofs.

Lemma lookup_attrs_uids l a v : lookup a l = Some v -> incl (value_uids v) (attrs_uids l).
Proof.
  intros H x Hx. unfold attrs_uids. apply in_flat_map.
  exists (a, v). split; [exact (lookup_In _ _ _ H) | exact Hx].
Qed.

(* projection of a value along an access path (head = first attribute to project); a non-record
   value ends the projection (the checker passes the path unchanged into entity-typed targets) *)
Fixpoint proj (path : list str) (v : value) : option value :=
  match path with
  | [] => Some v
  | a :: p =>
      match v with
      | VRecord r => match lookup a r with Some v' => proj p v' | None => None end
      | _ => Some v
      end
  end.

Lemma proj_entity path u : proj path (VEntity u) = Some (VEntity u).
Proof. destruct path; reflexivity. Qed.

Lemma proj_uids path : forall v v', proj path v = Some v' -> incl (value_uids v') (value_uids v).
Proof.
  induction path as [|a p IH]; intros v v' H; cbn in H.
  - inversion H; subst. apply incl_refl.
  - destruct v as [pr|l|r|x]; try (inversion H; subst; apply incl_refl).
    destruct (lookup a r) as [v1|] eqn:E; [|discriminate].
    eapply incl_tran; [eapply IH; eassumption|]. rewrite value_uids_attrs. eapply lookup_attrs_uids; eassumption.
Qed.

Lemma eval_if sl q s c a b :
  eval sl q s (If c a b) = bind (eval sl q s c) (fun vc => bind (as_bool vc) (fun x => if x then eval sl q s a else eval sl q s b)).
Proof. exact (EvalProofs.eval_if sl q s c a b). Qed.

Lemma get_attr_entity_inv es u a v :
  get_attr es (VEntity u) a = Ok v -> exists d, find_entity u es = Some d /\ lookup a (eattrs d) = Some v.
Proof.
  cbn. destruct (find_entity u es) as [d|]; [|discriminate].
  destruct (lookup a (eattrs d)) eqn:E; [|discriminate]. intros H; inversion H; subst. eauto.
Qed.

Lemma gettag_inv es va vb v :
  binary_app es BGetTag va vb = Ok v ->
  exists u d t, va = VEntity u /\ find_entity u es = Some d /\ lookup t (etags d) = Some v.
Proof.
  unfold binary_app. destruct va as [[| | |u]| | |]; try discriminate. cbn [as_entity bind].
  destruct (as_string vb) as [t|]; [|discriminate]. cbn [bind].
  destruct (find_entity u es) as [d|] eqn:F; [|discriminate].
  destruct (lookup t (etags d)) eqn:L; [|discriminate]. intros H; inversion H; subst. exists u, d, t. auto.
Qed.

Ltac split_app_nil := repeat match goal with H : _ ++ _ = [] |- _ => apply app_eq_nil in H; destruct H end.

(* st agrees with the full store on every entity within n hops (what it holds elsewhere is
   irrelevant): true of the level-n slice and of every store between the slice and es *)
Definition agrees_within (n : nat) (q : request) (es st : entities) : Prop :=
  forall u, In u (reach es n (request_roots q)) -> find_entity u st = find_entity u es.

Lemma slice_agrees n q es : agrees_within n q es (slice_at_level n q es).
Proof.
  intros u Hu. rewrite slice_find. rewrite (proj2 (uid_mem_In u _) Hu). reflexivity.
Qed.

Section Sound.
  Variables (sl : slotenv) (q : request) (es st : entities) (n : nat).
  Hypothesis Hag : agrees_within n q es st.
  Notation R k := (reach es k (request_roots q)).
  Notation act := (raction q).
  Notation maxl := (N.of_nat n).
  Notation ev s e := (eval sl q s (erase e)).

  Definition same (x : expr) : Prop := eval sl q st x = eval sl q es x.
  Definition same_target (x : expr) : Prop :=
    forall u, eval sl q es x = Ok (VEntity u) -> find_entity u st = find_entity u es.

  Lemma if_same c a b : same c -> same a -> same b -> same (If c a b).
  Proof. unfold same. intros Ec Ea Eb. rewrite !eval_if, Ec, Ea, Eb. reflexivity. Qed.

  Lemma and_same a b : same a -> same b -> same (And a b).
  Proof. unfold same. intros Ea Eb. rewrite !eval_and, Ea, Eb. reflexivity. Qed.
  Lemma or_same a b : same a -> same b -> same (Or a b).
  Proof. unfold same. intros Ea Eb. rewrite !eval_or, Ea, Eb. reflexivity. Qed.
  Lemma unapp_same op a : same a -> same (UnApp op a).
  Proof. unfold same. intros Ea. rewrite !eval_unapp, Ea. reflexivity. Qed.
  Lemma like_same a p : same a -> same (Like a p).
  Proof. unfold same. intros Ea. rewrite !eval_like, Ea. reflexivity. Qed.
  Lemma is_same a t : same a -> same (Is a t).
  Proof. unfold same. intros Ea. rewrite !eval_is, Ea. reflexivity. Qed.

  Lemma getattr_same x a : same x -> same_target x -> same (GetAttr x a).
  Proof.
    unfold same, same_target. intros E. rewrite !eval_getattr, E. destruct (eval sl q es x) as [v|]; [|reflexivity].
    intros T. apply get_attr_ext. intros u ->. apply T. reflexivity.
  Qed.

  Lemma hasattr_same x a : same x -> same_target x -> same (HasAttr x a).
  Proof.
    unfold same, same_target. intros E. rewrite !eval_hasattr, E. destruct (eval sl q es x) as [v|]; [|reflexivity].
    intros T. apply has_attr_ext. intros u ->. apply T. reflexivity.
  Qed.

  Lemma binapp_same op x y : same x -> same y -> (is_deref_binop op = true -> same_target x) -> same (BinApp op x y).
  Proof.
    unfold same, same_target. intros Ex Ey. rewrite !eval_binapp, Ex, Ey.
    destruct (eval sl q es x) as [va|]; [|reflexivity].
    destruct (eval sl q es y) as [vb|]; [|reflexivity].
    intros T. apply binary_app_ext. intros D u ->. apply (T D). reflexivity.
  Qed.

  Lemma list_same l : Forall same l -> same (SetE l) /\ forall fn, same (ExtCall fn l).
  Proof.
    unfold same. intros H. assert (E : eval_list sl q st l = eval_list sl q es l).
    { induction H as [|x l Hx _ IH]; [reflexivity|]. rewrite !eval_list_cons, Hx, IH. reflexivity. }
    split; [|intros fn]; [rewrite !eval_set | rewrite !eval_ext]; rewrite E; reflexivity.
  Qed.

  Lemma record_same l : Forall (fun kx => same (snd kx)) l -> same (RecordE l).
  Proof.
    unfold same. intros H. rewrite !eval_record.
    assert (E : eval_rec sl q st l = eval_rec sl q es l); [|rewrite E; reflexivity].
    induction H as [|[k x] l Hx _ IH]; [reflexivity|]. cbn [snd] in Hx. rewrite !eval_rec_cons, Hx, IH. reflexivity.
  Qed.

  Lemma record_target x : (forall v, eval sl q es x = Ok v -> exists r, v = VRecord r) -> same_target x.
  Proof. intros H u Hu. destruct (H _ Hu) as [r Hr]. discriminate. Qed.

  Definition within (k : nat) (path : list str) (r : res value) : Prop :=
    forall v v', r = Ok v -> proj path v = Some v' -> incl (value_uids v') (R k).

  Lemma within_err k path e : within k path (Err e).
  Proof. intros v v' H. discriminate. Qed.

  Lemma within_all k path v : incl (value_uids v) (R k) -> within k path (Ok v).
  Proof.
    intros H v0 v' Hv Hp. inversion Hv; subst. eapply incl_tran; [eapply proj_uids; eassumption | assumption].
  Qed.

  Lemma within_roots k path v : incl (value_uids v) (request_roots q) -> within (S k) path (Ok v).
  Proof. intros H. apply within_all. eapply incl_tran; [exact H|]. rewrite reach_S. apply incl_appl, incl_refl. Qed.

  Lemma within_mono k k' path r : (k <= k')%nat -> within k path r -> within k' path r.
  Proof.
    intros Hk H v v' Hv Hp. eapply incl_tran; [apply (H v v' Hv Hp) | apply reach_mono_le; assumption].
  Qed.

  Lemma within_entity k path u : within k path (Ok (VEntity u)) -> In u (R k).
  Proof. intros H. apply (H _ _ eq_refl (proj_entity path u)). left; reflexivity. Qed.

  Lemma within_target k path x : (k <= n)%nat -> within k path (eval sl q es x) -> same_target x.
  Proof.
    intros Hk H u Hu. rewrite Hu in H. apply Hag. eapply reach_mono_le; [exact Hk | eapply within_entity; exact H].
  Qed.

  Lemma within_if ka kb path c a b :
    within ka path (eval sl q es a) -> within kb path (eval sl q es b) ->
    within (Nat.max ka kb) path (eval sl q es (If c a b)).
  Proof.
    intros Ha Hb. rewrite eval_if. destruct (eval sl q es c) as [vc|]; [|apply within_err].
    cbn [bind]. destruct (as_bool vc) as [[]|]; cbn [bind]; [| |apply within_err].
    - eapply within_mono; [|exact Ha]. lia.
    - eapply within_mono; [|exact Hb]. lia.
  Qed.

  Lemma hop_value k u d a v :
    In u (R k) -> find_entity u es = Some d -> lookup a (eattrs d) = Some v \/ lookup a (etags d) = Some v ->
    incl (value_uids v) (R (S k)).
  Proof.
    intros Hu Hf Hl. eapply incl_tran; [|eapply reach_hop_closed; eassumption]. unfold edata_uids.
    destruct Hl as [Hl|Hl]; [apply incl_appl | apply incl_appr]; eapply lookup_attrs_uids; exact Hl.
  Qed.

  Lemma within_getattr_entity k path path' x a :
    (forall v, eval sl q es x = Ok v -> exists u, v = VEntity u) ->
    within k path (eval sl q es x) -> within (S k) path' (eval sl q es (GetAttr x a)).
  Proof.
    intros Hent H. rewrite eval_getattr. destruct (eval sl q es x) as [v|]; [|apply within_err].
    destruct (Hent v eq_refl) as [u ->]. cbn [bind].
    destruct (get_attr es (VEntity u) a) as [w|] eqn:G; [|apply within_err].
    apply get_attr_entity_inv in G as (d & Fu & Lu). apply within_all.
    eapply hop_value; [eapply within_entity; exact H | exact Fu | left; exact Lu].
  Qed.

  Lemma within_gettag k path path' x y :
    within k path (eval sl q es x) -> within (S k) path' (eval sl q es (BinApp BGetTag x y)).
  Proof.
    intros H. rewrite eval_binapp. destruct (eval sl q es x) as [va|]; [|apply within_err].
    cbn [bind]. destruct (eval sl q es y) as [vb|]; [|apply within_err].
    cbn [bind]. destruct (binary_app es BGetTag va vb) as [w|] eqn:G; [|apply within_err].
    apply gettag_inv in G as (u & d & tg & -> & Fu & Lu). apply within_all.
    eapply hop_value; [eapply within_entity; exact H | exact Fu | right; exact Lu].
  Qed.

  Lemma within_getattr_record k path x a :
    (forall v, eval sl q es x = Ok v -> exists r, v = VRecord r) ->
    within k (a :: path) (eval sl q es x) -> within k path (eval sl q es (GetAttr x a)).
  Proof.
    intros Hrec H. rewrite eval_getattr. destruct (eval sl q es x) as [v|]; [|apply within_err].
    destruct (Hrec v eq_refl) as [r ->]. cbn [bind get_attr].
    destruct (lookup a r) as [w|] eqn:La; [|apply within_err].
    intros w0 v' Hw Hp. inversion Hw; subst w0. apply (H _ _ eq_refl). cbn [proj]. rewrite La. exact Hp.
  Qed.

  Lemma within_record k a p l :
    (forall x, lookup a l = Some x -> within k p (eval sl q es x)) -> within k (a :: p) (eval sl q es (RecordE l)).
  Proof.
    intros H v v' Hv Hp. rewrite eval_record_mapM in Hv.
    destruct (mapM (eval sl q es) (map snd l)) as [vs|] eqn:M; [|discriminate]. inversion Hv; subst v.
    cbn [proj] in Hp. pose proof (mapM_lookup _ l a vs M) as L.
    destruct (lookup a l) as [x|]; [|rewrite L in Hp; discriminate].
    destruct L as (va & La & Ex). rewrite La in Hp. exact (H x eq_refl _ _ Ex Hp).
  Qed.

  (* Annotation soundness, the consequence of C03 that is needed, as a hypothesis: the target of every
     getAttr/hasAttr annotated with an entity type evaluates (if at all) to an entity, annotated with a
     record type to a record; record literals have distinct keys. *)
  Definition node_ok (x : texpr) : Prop :=
    (is_entity_oty (ty_of x) = true -> forall v, ev es x = Ok v -> exists u, v = VEntity u) /\
    (is_record_oty (ty_of x) = true -> forall v, ev es x = Ok v -> exists r, v = VRecord r).

  Fixpoint te_ok (e : texpr) : Prop :=
    match e with
    | TELit _ _ | TEVar _ _ | TESlot _ _ | TEUnknown _ _ _ => True
    | TEIf c a b _ => te_ok c /\ te_ok a /\ te_ok b
    | TEAnd a b _ | TEOr a b _ => te_ok a /\ te_ok b
    | TEUnApp _ a _ => te_ok a
    | TEBinApp _ a b _ => te_ok a /\ te_ok b
    | TEExtCall _ args _ =>
        (fix go (l : list texpr) : Prop := match l with [] => True | x :: l' => te_ok x /\ go l' end) args
    | TEGetAttr x _ _ | TEHasAttr x _ _ => node_ok x /\ te_ok x
    | TELike x _ _ | TEIs x _ _ => te_ok x
    | TESet items _ =>
        (fix go (l : list texpr) : Prop := match l with [] => True | x :: l' => te_ok x /\ go l' end) items
    | TERecord items _ =>
        keys_nodup items = true /\
        (fix go (l : list (str * texpr)) : Prop :=
           match l with [] => True | (_, x) :: l' => te_ok x /\ go l' end) items
    end.

  Lemma te_ok_list (l : list texpr) :
    (fix go (l : list texpr) : Prop := match l with [] => True | x :: l' => te_ok x /\ go l' end) l -> Forall te_ok l.
  Proof. induction l as [|x l IH]; intros H; constructor; [apply H | apply IH, H]. Qed.
  Lemma te_ok_rec items t :
    te_ok (TERecord items t) -> keys_nodup items = true /\ Forall (fun kv => te_ok (snd kv)) items.
  Proof.
    cbn [te_ok]. intros [Hn H]. split; [assumption|]. clear Hn.
    induction items as [|[k x] l IH]; constructor; [apply H | apply IH, H].
  Qed.

  Lemma over_nil l : over maxl l = [] -> (S (N.to_nat l) <= n)%nat.
  Proof. unfold over. destruct (N.leb_spec maxl l); [discriminate | intros _; lia]. Qed.

  Definition P0 (e : texpr) : Prop :=
    te_ok e -> snd (lv act maxl None e) = [] -> same (erase e).
  Definition P1 (e : texpr) : Prop :=
    forall path, te_ok e -> snd (lv act maxl (Some path) e) = [] ->
      ((N.to_nat (fst (lv act maxl (Some path) e)) <= n)%nat -> same (erase e)) /\
      within (S (N.to_nat (fst (lv act maxl (Some path) e)))) path (ev es e).

  Lemma P1_not_target e : (forall path, snd (lv act maxl (Some path) e) <> []) -> P1 e.
  Proof. intros H path _ He. destruct (H path He). Qed.

  (* a target checked from check_expr_level: no error and a level below the maximum *)
  Lemma target_ok e : P1 e -> te_ok e -> snd (lv act maxl (Some []) e) = [] ->
    over maxl (fst (lv act maxl (Some []) e)) = [] -> same (erase e) /\ same_target (erase e).
  Proof.
    intros HP Hok He Ho. apply over_nil in Ho. destruct (HP [] Hok He) as [Hi Hii].
    split; [apply Hi; lia | exact (within_target _ _ _ Ho Hii)].
  Qed.

  (* the target of getAttr / hasAttr in check_expr_level (the two share the arm) *)
  Lemma attr_target e a t : P0 e -> P1 e -> node_ok e /\ te_ok e -> snd (lv act maxl None (TEHasAttr e a t)) = [] ->
    same (erase e) /\ same_target (erase e).
  Proof.
    intros H0 H1 [[_ Nrec] Oe] He. cbn [lv] in He. destruct (is_entity_oty (ty_of e)).
    - cbn [snd] in He. split_app_nil. apply target_ok; assumption.
    - destruct (is_record_oty (ty_of e)); [|discriminate].
      split; [exact (H0 Oe He) | exact (record_target _ (Nrec eq_refl))].
  Qed.

  Definition sound (e : texpr) : Prop := P0 e /\ P1 e.

  Lemma sound_lit p t : sound (TELit p t).
  Proof.
    split; [intros _ _; reflexivity|]. intros path _ He.
    destruct p as [b|z|s|u]; try discriminate.
    cbn [lv fst snd] in He |- *. destruct (uid_eqb u act) eqn:E; [|discriminate]. apply uid_eqb_eq in E. subst u.
    split; [reflexivity|]. apply within_roots. intros x [<-|[]]. right; left; reflexivity.
  Qed.

  Lemma sound_var v t : sound (TEVar v t).
  Proof.
    split; [intros _ _; reflexivity|]. intros path _ _. split; [reflexivity|]. apply within_roots, eval_var_uids.
  Qed.

  Lemma sound_slot s t : sound (TESlot s t).
  Proof. split; [intros _ _; reflexivity | apply P1_not_target; discriminate]. Qed.

  Lemma sound_unknown u rt t : sound (TEUnknown u rt t).
  Proof. split; [intros _ _; reflexivity | apply P1_not_target; discriminate]. Qed.

  Lemma sound_if c a b t : sound c -> sound a -> sound b -> sound (TEIf c a b t).
  Proof.
    intros [Hc _] [Ha0 Ha1] [Hb0 Hb1]. split.
    - intros (Oc & Oa & Ob) He. cbn [lv snd] in He. split_app_nil. apply if_same; auto.
    - intros path (Oc & Oa & Ob) He. cbn [lv fst snd] in He |- *. split_app_nil.
      destruct (Ha1 path Oa) as [Ai Aii]; [assumption|]. destruct (Hb1 path Ob) as [Bi Bii]; [assumption|].
      rewrite N2Nat.inj_max. split.
      + intros Hl. apply if_same; [auto | exact (Ai (Nat.max_lub_l _ _ _ Hl)) | exact (Bi (Nat.max_lub_r _ _ _ Hl))].
      + rewrite Nat.succ_max_distr. apply within_if; assumption.
  Qed.

  Lemma sound_and a b t : sound a -> sound b -> sound (TEAnd a b t).
  Proof.
    intros [Ha _] [Hb _]. split; [|apply P1_not_target; discriminate].
    intros (Oa & Ob) He. cbn [lv snd] in He. split_app_nil. apply and_same; auto.
  Qed.

  Lemma sound_or a b t : sound a -> sound b -> sound (TEOr a b t).
  Proof.
    intros [Ha _] [Hb _]. split; [|apply P1_not_target; discriminate].
    intros (Oa & Ob) He. cbn [lv snd] in He. split_app_nil. apply or_same; auto.
  Qed.

  Lemma sound_unapp op a t : sound a -> sound (TEUnApp op a t).
  Proof.
    intros [Ha _]. split; [|apply P1_not_target; discriminate].
    intros Oa He. apply unapp_same; auto.
  Qed.

  Lemma sound_binapp op a b t : sound a -> sound b -> sound (TEBinApp op a b t).
  Proof.
    intros [Ha0 Ha1] [Hb _]. split.
    - intros (Oa & Ob) He. cbn [lv] in He. destruct (is_deref_binop op) eqn:D; cbn [snd] in He; split_app_nil.
      + destruct (target_ok a Ha1 Oa) as [Ea Ta]; [assumption..|]. apply binapp_same; auto.
      + apply binapp_same; [auto | auto | rewrite D; discriminate].
    - intros path (Oa & Ob) He. destruct op; try discriminate.
      cbn [lv fst snd] in He |- *. split_app_nil.
      destruct (Ha1 path Oa) as [Ai Aii]; [assumption|]. rewrite N2Nat.inj_succ. split.
      + intros Hl. apply binapp_same.
        * exact (Ai (Nat.lt_le_incl _ _ Hl)).
        * auto.
        * intros _. exact (within_target _ _ _ Hl Aii).
      + apply within_gettag with (path := path). exact Aii.
  Qed.

  Lemma sound_list (l : list texpr) :
    Forall sound l -> Forall te_ok l -> concat (map (fun x => snd (lv act maxl None x)) l) = [] ->
    Forall same (map erase l).
  Proof.
    intros H Hok He. apply concat_map_nil in He. apply Forall_map, Forall_forall. intros x Hx.
    apply (proj1 (Forall_forall _ _) H x Hx).
    - exact (proj1 (Forall_forall _ _) Hok x Hx).
    - exact (proj1 (Forall_forall _ _) He x Hx).
  Qed.

  Lemma sound_extcall fn args t : Forall sound args -> sound (TEExtCall fn args t).
  Proof.
    intros H. split; [|apply P1_not_target; discriminate].
    intros Hok He. apply list_same, sound_list; [exact H | exact (te_ok_list _ Hok) | exact He].
  Qed.

  Lemma sound_set items t : Forall sound items -> sound (TESet items t).
  Proof.
    intros H. split; [|apply P1_not_target; discriminate].
    intros Hok He. apply list_same, sound_list; [exact H | exact (te_ok_list _ Hok) | exact He].
  Qed.

  Lemma sound_getattr e a t : sound e -> sound (TEGetAttr e a t).
  Proof.
    intros [IH0 IH1]. split.
    - intros Hok He. destruct (attr_target e a t IH0 IH1 Hok He). apply getattr_same; assumption.
    - intros path [[Nent Nrec] Oe] He. cbn [lv] in He |- *.
      destruct (is_entity_oty (ty_of e)) eqn:Te.
      + cbn [fst snd] in He |- *. destruct (IH1 path Oe He) as [Ei Eii]. rewrite N2Nat.inj_succ. split.
        * intros Hl. apply getattr_same; [exact (Ei (Nat.lt_le_incl _ _ Hl)) | exact (within_target _ _ _ Hl Eii)].
        * apply within_getattr_entity with (path := path); [exact (Nent eq_refl) | exact Eii].
      + destruct (is_record_oty (ty_of e)) eqn:Tr; [|discriminate].
        destruct (IH1 (a :: path) Oe He) as [Ei Eii]. split.
        * intros Hl. apply getattr_same; [exact (Ei Hl) | exact (record_target _ (Nrec eq_refl))].
        * apply within_getattr_record; [exact (Nrec eq_refl) | exact Eii].
  Qed.

  Lemma sound_hasattr e a t : sound e -> sound (TEHasAttr e a t).
  Proof.
    intros [IH0 IH1]. split; [|apply P1_not_target; discriminate].
    intros Hok He. destruct (attr_target e a t IH0 IH1 Hok He). apply hasattr_same; assumption.
  Qed.

  Lemma sound_like e p t : sound e -> sound (TELike e p t).
  Proof.
    intros [IHe _]. split; [|apply P1_not_target; discriminate].
    intros Oe He. apply like_same; auto.
  Qed.

  Lemma sound_is e et t : sound e -> sound (TEIs e et t).
  Proof.
    intros [IHe _]. split; [|apply P1_not_target; discriminate].
    intros Oe He. apply is_same; auto.
  Qed.

  Lemma sound_record items t : Forall (fun kv => sound (snd kv)) items -> sound (TERecord items t).
  Proof.
    intros H. pose proof (proj1 (Forall_forall _ _) H) as Hin. split.
    - intros Hok He. cbn [lv snd] in He. apply te_ok_rec in Hok as [_ Hok]. apply concat_map_nil in He.
      apply record_same, Forall_map, Forall_forall. intros kv Hkv.
      apply (Hin kv Hkv); [exact (proj1 (Forall_forall _ _) Hok kv Hkv) | exact (proj1 (Forall_forall _ _) He kv Hkv)].
    - intros path Hok He. apply te_ok_rec in Hok as [Hn Hok]. pose proof (proj1 (Forall_forall _ _) Hok) as Hok'.
      destruct path as [|a p]; [discriminate|]. rewrite lv_record_path in He |- *.
      destruct (lookup a items) as [x|] eqn:L; [|discriminate].
      cbn [fst snd] in He |- *. apply app_eq_nil in He as [Eo Ex]. apply concat_map_nil in Eo.
      pose proof (lookup_In _ _ _ L) as Hx.
      destruct (proj2 (Hin _ Hx) p (Hok' _ Hx) Ex) as [Xi Xii]. split.
      + (* the accessed attribute is x (distinct keys); the others are checked as expressions *)
        intros Hl. apply record_same, Forall_map, Forall_forall. intros [k y] Hy. cbn [snd].
        destruct (str_eqb a k) eqn:Ek.
        * apply str_eqb_eq in Ek. subst k. rewrite (nodup_In_lookup _ _ _ Hn Hy) in L.
          inversion L; subst y. exact (Xi Hl).
        * apply (proj1 (Hin _ Hy) (Hok' _ Hy)). pose proof (proj1 (Forall_forall _ _) Eo _ Hy) as E.
          cbn [fst snd] in E. rewrite Ek in E. exact E.
      + apply within_record. intros x' Lx. rewrite (lookup_map_snd erase), L in Lx. inversion Lx; subst x'. exact Xii.
  Qed.

  Lemma sound_all : forall e, sound e.
  Proof.
    exact (texpr_ind' sound sound_lit sound_var sound_slot sound_unknown sound_if sound_and sound_or sound_unapp
             sound_binapp sound_extcall sound_getattr sound_hasattr sound_like sound_is sound_set sound_record).
  Qed.
End Sound.

Lemma between_sound sl q es st n te :
  agrees_within n q es st -> te_ok sl q es te ->
  level_ok (raction q) (N.of_nat n) te = true ->
  eval sl q st (erase te) = eval sl q es (erase te).
Proof.
  intros Hag Hok Hl. apply (proj1 (sound_all sl q es st n Hag te)); [assumption|].
  unfold level_ok, level_errors in Hl.
  destruct (snd (lv (raction q) (N.of_nat n) None te)); [reflexivity | discriminate].
Qed.

Lemma response_between ps q es st n :
  agrees_within n q es st ->
  (forall p, In p ps ->
     exists te, erase te = pcondition p /\ te_ok (penv p) q es te /\ level_ok (raction q) (N.of_nat n) te = true) ->
  is_authorized ps q st = is_authorized ps q es.
Proof.
  intros Hag Hps. apply is_authorized_ext.
  intros p Hp. destruct (Hps p Hp) as (te & Ee & Hok & Hl). unfold eval_policy. rewrite <- Ee.
  rewrite (between_sound (penv p) q es st n te Hag Hok Hl). reflexivity.
Qed.
