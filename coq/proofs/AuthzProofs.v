(* Every bucket the authorizer loop fills is the concatenation of what each policy contributes to it,
   in policy order; the theorems are read off these closed forms. *)
From Coq Require Import Permutation.
From Cedar Require Import Authz.

Section Proofs.
  Variable evalp : policy -> res bool.

  Definition has_effect (eff : effect) (p : policy) : bool :=
    match peffect p, eff with Permit, Permit | Forbid, Forbid => true | _, _ => false end.
  Definition is_unsat (p : policy) : bool := match evalp p with Ok false => true | _ => false end.

  Definition sat_ids (eff : effect) (ps : list policy) : list str :=
    flat_map (fun p => if has_effect eff p then match evalp p with Ok true => [pid p] | _ => [] end else []) ps.
  Definition unsat_ids (eff : effect) (ps : list policy) : list (str * bool) :=
    flat_map (fun p => if has_effect eff p then
                         match evalp p with
                         | Ok true => []
                         | Ok false => [(pid p, false)]
                         | Err _ => [(pid p, true)]
                         end
                       else []) ps.
  Definition err_ids (ps : list policy) : list (str * err) :=
    flat_map (fun p => match evalp p with Err e => [(pid p, e)] | _ => [] end) ps.

  Definition closed_form (ps : list policy) : buckets :=
    mkBuckets (sat_ids Permit ps) (sat_ids Forbid ps) (unsat_ids Permit ps) (unsat_ids Forbid ps) (err_ids ps).

  Lemma fold_appends {B X} (step : B -> policy -> B) (proj : B -> list X) (g : policy -> list X) :
    (forall b p, proj (step b p) = proj b ++ g p) ->
    forall ps b, proj (fold_left step ps b) = proj b ++ flat_map g ps.
  Proof.
    intros H. induction ps as [|p ps IH]; intros b; cbn [fold_left flat_map].
    - rewrite app_nil_r. reflexivity.
    - rewrite IH, H, <- app_assoc. reflexivity.
  Qed.

  Lemma buckets_eta b :
    b = mkBuckets (true_permits b) (true_forbids b) (false_permits b) (false_forbids b) (errors b).
  Proof. destruct b; reflexivity. Qed.

  Lemma auth_core_closed ps : auth_core evalp ps = closed_form ps.
  Proof.
    rewrite (buckets_eta (auth_core evalp ps)). unfold auth_core, closed_form, sat_ids, unsat_ids, err_ids.
    f_equal; refine (fold_appends _ _ _ _ ps empty_buckets); intros b p.
    all: unfold has_effect; destruct (peffect p), (evalp p) as [[|]|]; cbn; rewrite ?app_nil_r; reflexivity.
  Qed.

  Lemma authorize_closed ps : authorize_with evalp ps = concretize (closed_form ps).
  Proof. unfold authorize_with. rewrite auth_core_closed. reflexivity. Qed.

  Lemma in_sat_ids eff i ps :
    In i (sat_ids eff ps) <-> exists p, In p ps /\ pid p = i /\ peffect p = eff /\ evalp p = Ok true.
  Proof.
    unfold sat_ids, has_effect. rewrite in_flat_map. split; intros [p [Hin H]]; exists p.
    - destruct (peffect p), eff, (evalp p) as [[|]|]; cbn in H; try contradiction; destruct H as [H|[]]; auto.
    - destruct H as [Hid [He Hs]]. rewrite He, Hs. destruct eff; cbn; auto.
  Qed.

  Lemma in_err_ids i e ps : In (i, e) (err_ids ps) <-> exists p, In p ps /\ pid p = i /\ evalp p = Err e.
  Proof.
    unfold err_ids. rewrite in_flat_map. split; intros [p [Hin H]]; exists p.
    - destruct (evalp p) as [b|e']; cbn in H; [contradiction|].
      destruct H as [H|[]]. inversion H; subst. auto.
    - destruct H as [Hid He]. rewrite He, <- Hid. cbn. auto.
  Qed.

  Definition sat_permit ps := exists p, In p ps /\ peffect p = Permit /\ evalp p = Ok true.
  Definition sat_forbid ps := exists p, In p ps /\ peffect p = Forbid /\ evalp p = Ok true.

  Lemma sat_ids_nonempty eff ps :
    sat_ids eff ps <> [] <-> exists p, In p ps /\ peffect p = eff /\ evalp p = Ok true.
  Proof.
    split.
    - intros H. destruct (sat_ids eff ps) as [|i l] eqn:E; [congruence|].
      assert (Hi : In i (sat_ids eff ps)) by (rewrite E; left; reflexivity).
      apply in_sat_ids in Hi as [p [? [? [? ?]]]]; eauto.
    - intros [p [Hin [He Hs]]] E.
      assert (Hi : In (pid p) (sat_ids eff ps)) by (apply in_sat_ids; eauto).
      rewrite E in Hi; contradiction.
  Qed.

  Theorem decision_allow_iff ps :
    rdecision (authorize_with evalp ps) = Allow <-> sat_permit ps /\ ~ sat_forbid ps.
  Proof.
    rewrite authorize_closed. unfold sat_permit, sat_forbid.
    rewrite <- (sat_ids_nonempty Permit), <- (sat_ids_nonempty Forbid). cbn.
    destruct (sat_ids Permit ps), (sat_ids Forbid ps); intuition congruence.
  Qed.

  Theorem decision_deny_iff ps :
    rdecision (authorize_with evalp ps) = Deny <-> ~ (sat_permit ps /\ ~ sat_forbid ps).
  Proof.
    rewrite <- decision_allow_iff. destruct (rdecision (authorize_with evalp ps)); intuition congruence.
  Qed.

  Theorem reasons_iff ps i :
    In i (rreasons (authorize_with evalp ps)) <->
    (sat_forbid ps /\ exists p, In p ps /\ pid p = i /\ peffect p = Forbid /\ evalp p = Ok true) \/
    (~ sat_forbid ps /\ exists p, In p ps /\ pid p = i /\ peffect p = Permit /\ evalp p = Ok true).
  Proof.
    rewrite authorize_closed. unfold sat_forbid.
    rewrite <- (sat_ids_nonempty Forbid), <- !in_sat_ids. cbn.
    destruct (sat_ids Forbid ps); intuition congruence.
  Qed.

  Lemma perm_same_shape {A} (l l' : list A) :
    Permutation l l' -> match l, l' with [], _ :: _ | _ :: _, [] => False | _, _ => True end.
  Proof.
    intros H. destruct l, l'; try exact I;
      [apply Permutation_nil_cons in H | apply Permutation_sym, Permutation_nil_cons in H]; exact H.
  Qed.

  (* the decision looks at the two lists only through which of them are empty; the reasons are one of the two,
     chosen the same way *)
  Lemma concretize_perm b b' :
    Permutation (true_permits b) (true_permits b') -> Permutation (true_forbids b) (true_forbids b') ->
    Permutation (errors b) (errors b') ->
    rdecision (concretize b) = rdecision (concretize b') /\
    Permutation (rreasons (concretize b)) (rreasons (concretize b')) /\
    Permutation (rerrors (concretize b)) (rerrors (concretize b')).
  Proof.
    intros Hp Hf He. pose proof (perm_same_shape _ _ Hp) as Sp. pose proof (perm_same_shape _ _ Hf) as Sf.
    unfold concretize. cbn.
    destruct (true_permits b), (true_forbids b), (true_permits b'), (true_forbids b'); try contradiction; auto.
  Qed.

  Theorem authorize_perm ps ps' :
    Permutation ps ps' ->
    rdecision (authorize_with evalp ps) = rdecision (authorize_with evalp ps') /\
    Permutation (rreasons (authorize_with evalp ps)) (rreasons (authorize_with evalp ps')) /\
    Permutation (rerrors (authorize_with evalp ps)) (rerrors (authorize_with evalp ps')).
  Proof.
    intros HP. unfold authorize_with. rewrite !auth_core_closed.
    apply concretize_perm; apply Permutation_flat_map, HP.
  Qed.
End Proofs.

Definition rename_policy (f : str -> str) (p : policy) : policy :=
  match plink p with
  | Some l => mkPolicy (ptemplate p) (Some (f l)) (penv p)
  | None =>
      let t := ptemplate p in
      mkPolicy (mkTemplate (f (tid t)) (tannot t) (teffect t) (tprincipal t) (taction t) (tresource t) (tbody t))
               None (penv p)
  end.

Lemma rename_pid f p : pid (rename_policy f p) = f (pid p).
Proof. unfold rename_policy, pid; destruct (plink p); reflexivity. Qed.
Lemma rename_effect f p : peffect (rename_policy f p) = peffect p.
Proof. unfold rename_policy, peffect; destruct (plink p); reflexivity. Qed.
Lemma rename_has_effect f eff p : has_effect eff (rename_policy f p) = has_effect eff p.
Proof. unfold has_effect. rewrite rename_effect. reflexivity. Qed.
Lemma rename_condition f p : pcondition (rename_policy f p) = pcondition p.
Proof. unfold rename_policy, pcondition, condition; destruct (plink p); reflexivity. Qed.
Lemma rename_env f p : penv (rename_policy f p) = penv p.
Proof. unfold rename_policy; destruct (plink p); reflexivity. Qed.

Section Rename.
  Variable evalp : policy -> res bool.
  Variable f : str -> str.
  Hypothesis Hev : forall p, evalp (rename_policy f p) = evalp p.

  Lemma flat_map_rename {A B} (h : A -> B) (g : policy -> list A) (g' : policy -> list B) ps :
    (forall p, g' (rename_policy f p) = map h (g p)) ->
    flat_map g' (map (rename_policy f) ps) = map h (flat_map g ps).
  Proof.
    intros E. induction ps as [|p ps IH]; [reflexivity|].
    cbn [map flat_map]. rewrite map_app, E, IH. reflexivity.
  Qed.

  Lemma rename_sat_ids eff ps : sat_ids evalp eff (map (rename_policy f) ps) = map f (sat_ids evalp eff ps).
  Proof.
    apply flat_map_rename. intros p. rewrite rename_has_effect, Hev, rename_pid.
    destruct (has_effect eff p); [destruct (evalp p) as [[|]|]|]; reflexivity.
  Qed.

  Lemma rename_err_ids ps :
    err_ids evalp (map (rename_policy f) ps) = map (fun ie => (f (fst ie), snd ie)) (err_ids evalp ps).
  Proof. apply flat_map_rename. intros p. rewrite Hev, rename_pid. destruct (evalp p); reflexivity. Qed.

  Theorem authorize_rename ps :
    let r := authorize_with evalp ps in
    let r' := authorize_with evalp (map (rename_policy f) ps) in
    rdecision r' = rdecision r /\ rreasons r' = map f (rreasons r) /\
    rerrors r' = map (fun ie => (f (fst ie), snd ie)) (rerrors r).
  Proof.
    cbn zeta. rewrite !authorize_closed. cbn. rewrite !rename_sat_ids, rename_err_ids.
    destruct (sat_ids evalp Permit ps), (sat_ids evalp Forbid ps); cbn; auto.
  Qed.
End Rename.

Lemma eval_policy_rename q es f p : eval_policy q es (rename_policy f p) = eval_policy q es p.
Proof. unfold eval_policy; rewrite rename_condition, rename_env; reflexivity. Qed.

Lemma auth_core_ext (f g : policy -> res bool) ps :
  (forall p, In p ps -> f p = g p) -> auth_core f ps = auth_core g ps.
Proof.
  unfold auth_core. generalize empty_buckets as b.
  induction ps as [|p ps IH]; intros b H; [reflexivity|].
  cbn [fold_left]. rewrite (H p (or_introl eq_refl)). apply IH. intros p' Hp'. apply H. right; assumption.
Qed.

Lemma is_authorized_ext ps q es es' :
  (forall p, In p ps -> eval_policy q es' p = eval_policy q es p) -> is_authorized ps q es' = is_authorized ps q es.
Proof. intros H. unfold is_authorized, authorize_with. f_equal. apply auth_core_ext, H. Qed.
