(* The comparisons of Value.v: prim_eqb and ext_eqb decide equality; value_eqb is an
   equivalence (by value_ind', the induction principle for a type nested through lists), under which a
   set is its membership predicate: == on sets is having the same members, and the set operations
   are inclusion and overlap of members (property C02, set semantics). *)
From Cedar Require Import Value.
From Cedar Require Export BaseFacts.

Lemma prim_eqb_eq a b : prim_eqb a b = true <-> a = b.
Proof.
  destruct a, b; cbn; try (split; discriminate).
  all: rewrite ?Bool.eqb_true_iff, ?Z.eqb_eq, ?str_eqb_eq, ?uid_eqb_eq; split; congruence.
Qed.

Lemma ext_eqb_eq a b : ext_eqb a b = true <-> a = b.
Proof.
  destruct a as [x|[v a p]|x|x], b as [y|[w b r]|y|y]; cbn; try (split; discriminate).
  all: rewrite ?Bool.andb_true_iff, ?Bool.eqb_true_iff, ?Z.eqb_eq, ?N.eqb_eq; split; try congruence.
  - intros [[-> ->] ->]. reflexivity.
  - intros [= -> -> ->]. auto.
Qed.

(* value is nested through list: the generated principle has no hypothesis for the elements *)
Section ValueInd.
  Variable P : value -> Prop.
  Hypothesis Hp : forall p, P (VPrim p).
  Hypothesis Hs : forall l, Forall P l -> P (VSet l).
  Hypothesis Hr : forall l, Forall (fun kv => P (snd kv)) l -> P (VRecord l).
  Hypothesis He : forall x, P (VExt x).

  Fixpoint value_ind' (v : value) : P v :=
    match v with
    | VPrim p => Hp p
    | VSet l => Hs l ((fix go (l : list value) : Forall P l :=
                         match l with
                         | [] => Forall_nil _
                         | x :: l' => Forall_cons _ (value_ind' x) (go l')
                         end) l)
    | VRecord l => Hr l ((fix go (l : list (str * value)) : Forall (fun kv => P (snd kv)) l :=
                            match l with
                            | [] => Forall_nil _
                            | kv :: l' => Forall_cons _ (value_ind' (snd kv)) (go l')
                            end) l)
    | VExt x => He x
    end.
End ValueInd.

(* value_eqb on sets and records, without its nested fixes: on sets they are forallb over existsb *)
Lemma value_eqb_set_iff xs ys :
  value_eqb (VSet xs) (VSet ys) = true <->
  (forall x, In x xs -> exists y, In y ys /\ value_eqb x y = true) /\
  (forall y, In y ys -> exists x, In x xs /\ value_eqb x y = true).
Proof.
  change (value_eqb (VSet xs) (VSet ys))
    with (forallb (fun x => existsb (value_eqb x) ys) xs && forallb (fun y => existsb (fun x => value_eqb x y) xs) ys).
  split.
  - intros H. apply andb_prop in H as [H1 H2]. split; intros z Hz; apply existsb_exists.
    + exact (proj1 (forallb_forall _ _) H1 z Hz).
    + exact (proj1 (forallb_forall _ _) H2 z Hz).
  - intros [H1 H2]. apply andb_true_intro. split; apply forallb_forall; intros z Hz; apply existsb_exists.
    + apply H1, Hz.
    + apply H2, Hz.
Qed.

Fixpoint rec_eqb (xs ys : list (str * value)) : bool :=
  match xs, ys with
  | [], [] => true
  | (k, v) :: xs', (k', v') :: ys' => str_eqb k k' && value_eqb v v' && rec_eqb xs' ys'
  | _, _ => false
  end.

Lemma value_eqb_record xs ys : value_eqb (VRecord xs) (VRecord ys) = rec_eqb xs ys.
Proof.
  cbn [value_eqb]. revert ys; induction xs as [|[k v] xs IH]; intros [|[k' v'] ys]; reflexivity.
Qed.

Lemma rec_eqb_cons k v xs k' v' ys :
  rec_eqb ((k, v) :: xs) ((k', v') :: ys) = true <-> k = k' /\ value_eqb v v' = true /\ rec_eqb xs ys = true.
Proof.
  cbn [rec_eqb]. split.
  - intros H. apply andb_prop in H as [H Hr]. apply andb_prop in H as [Hk Hv]. apply str_eqb_eq in Hk. auto.
  - intros (-> & Hv & Hr). rewrite str_eqb_refl, Hv, Hr. reflexivity.
Qed.

Lemma value_eqb_prim_inv p b : value_eqb (VPrim p) b = true -> b = VPrim p.
Proof. destruct b; try discriminate. cbn. intros H; apply prim_eqb_eq in H as ->. reflexivity. Qed.

Lemma value_eqb_ext_inv x b : value_eqb (VExt x) b = true -> b = VExt x.
Proof. destruct b; try discriminate. cbn. intros H; apply ext_eqb_eq in H as ->. reflexivity. Qed.

Theorem value_eqb_refl v : value_eqb v v = true.
Proof.
  induction v as [p|l IH|l IH|x] using value_ind'.
  - apply prim_eqb_eq; reflexivity.
  - rewrite Forall_forall in IH. apply value_eqb_set_iff; split; intros x Hx; exists x; auto.
  - rewrite value_eqb_record. induction IH as [|[k v] l Hv _ IHl]; [reflexivity|].
    apply rec_eqb_cons; auto.
  - apply ext_eqb_eq; reflexivity.
Qed.

Theorem value_eqb_sym a : forall b, value_eqb a b = true -> value_eqb b a = true.
Proof.
  induction a as [p|l IH|l IH|x] using value_ind'; intros b H.
  - apply value_eqb_prim_inv in H as ->. apply value_eqb_refl.
  - destruct b as [|m| |]; try discriminate. rewrite Forall_forall in IH.
    apply value_eqb_set_iff in H as [H1 H2]. apply value_eqb_set_iff; split; intros y Hy.
    + destruct (H2 y Hy) as [x [Hx Hxy]]. exists x; split; [exact Hx | exact (IH x Hx y Hxy)].
    + destruct (H1 y Hy) as [x [Hx Hyx]]. exists x; split; [exact Hx | exact (IH y Hy x Hyx)].
  - destruct b as [| |m|]; try discriminate. rewrite value_eqb_record in *.
    revert m H; induction IH as [|[k v] l Hv _ IHl]; intros [|[k' v'] m] H; try discriminate H; [reflexivity|].
    apply rec_eqb_cons in H as (-> & Hvv' & Hlm). apply rec_eqb_cons.
    split; [reflexivity | split; [exact (Hv v' Hvv') | exact (IHl m Hlm)]].
  - apply value_eqb_ext_inv in H as ->. apply value_eqb_refl.
Qed.

Theorem value_eqb_trans a : forall b c, value_eqb a b = true -> value_eqb b c = true -> value_eqb a c = true.
Proof.
  induction a as [p|l IH|l IH|x] using value_ind'; intros b c H1 H2.
  - apply value_eqb_prim_inv in H1 as ->. exact H2.
  - destruct b as [|m| |]; try discriminate. destruct c as [|n| |]; try discriminate. rewrite Forall_forall in IH.
    apply value_eqb_set_iff in H1 as [A1 A2]. apply value_eqb_set_iff in H2 as [B1 B2].
    apply value_eqb_set_iff; split.
    + intros x Hx. destruct (A1 x Hx) as [y [Hy Hxy]]. destruct (B1 y Hy) as [z [Hz Hyz]].
      exists z; split; [exact Hz | exact (IH x Hx y z Hxy Hyz)].
    + intros z Hz. destruct (B2 z Hz) as [y [Hy Hyz]]. destruct (A2 y Hy) as [x [Hx Hxy]].
      exists x; split; [exact Hx | exact (IH x Hx y z Hxy Hyz)].
  - destruct b as [| |m|]; try discriminate. destruct c as [| |n|]; try discriminate.
    rewrite value_eqb_record in *.
    revert m n H1 H2; induction IH as [|[k v] l Hv _ IHl]; intros m n H1 H2.
    { destruct m; [exact H2 | discriminate H1]. }
    destruct m as [|[k' v'] m]; [discriminate H1|]. destruct n as [|[k'' v''] n]; [discriminate H2|].
    apply rec_eqb_cons in H1 as (-> & A & A'). apply rec_eqb_cons in H2 as (-> & B & B').
    apply rec_eqb_cons. split; [reflexivity | split; [exact (Hv v' v'' A B) | exact (IHl m n A' B')]].
  - apply value_eqb_ext_inv in H1 as ->. exact H2.
Qed.

Lemma value_eqb_comm a b : value_eqb a b = value_eqb b a.
Proof. apply Bool.eq_true_iff_eq. split; apply value_eqb_sym. Qed.

Lemma set_mem_spec v s : set_mem v s = true <-> exists y, In y s /\ value_eqb v y = true.
Proof. unfold set_mem. apply existsb_exists. Qed.

Lemma In_set_mem x s : In x s -> set_mem x s = true.
Proof. intros H. apply set_mem_spec. exists x; split; [assumption | apply value_eqb_refl]. Qed.

Lemma set_mem_respects v v' s : value_eqb v v' = true -> set_mem v s = set_mem v' s.
Proof.
  intros E. apply existsb_ext. intros y. apply Bool.eq_true_iff_eq. split; intros H.
  - exact (value_eqb_trans v' v y (value_eqb_sym v v' E) H).
  - exact (value_eqb_trans v v' y E H).
Qed.

Theorem set_subset_spec a b : set_subset a b = true <-> forall v, set_mem v a = true -> set_mem v b = true.
Proof.
  unfold set_subset. rewrite forallb_forall. split.
  - intros H v Hv. apply set_mem_spec in Hv as [x [Hx Hvx]]. rewrite (set_mem_respects v x b Hvx). apply H; assumption.
  - intros H x Hx. apply H, In_set_mem, Hx.
Qed.

Theorem set_disjoint_spec a b : set_disjoint a b = false <-> exists v, set_mem v a = true /\ set_mem v b = true.
Proof.
  unfold set_disjoint. rewrite forallb_negb, Bool.negb_false_iff, existsb_exists. split.
  - intros [x [Hx Hb]]. exists x; split; [apply In_set_mem, Hx | exact Hb].
  - intros [v [Ha Hb]]. apply set_mem_spec in Ha as [x [Hx Hvx]].
    exists x; split; [exact Hx|]. rewrite <- (set_mem_respects v x b Hvx). exact Hb.
Qed.

Lemma value_eqb_set_mutual xs ys : value_eqb (VSet xs) (VSet ys) = set_subset xs ys && set_subset ys xs.
Proof.
  change (value_eqb (VSet xs) (VSet ys))
    with (set_subset xs ys && forallb (fun y => existsb (fun x => value_eqb x y) xs) ys).
  f_equal. apply forallb_ext. intros y. apply existsb_ext. intros x. apply value_eqb_comm.
Qed.

Theorem set_eq_iff_same_members xs ys :
  value_eqb (VSet xs) (VSet ys) = true <-> forall v, set_mem v xs = set_mem v ys.
Proof.
  rewrite value_eqb_set_mutual, Bool.andb_true_iff, !set_subset_spec. split.
  - intros [H1 H2] v. apply Bool.eq_true_iff_eq. split; [apply H1 | apply H2].
  - intros H. split; intros v; rewrite H; trivial.
Qed.
