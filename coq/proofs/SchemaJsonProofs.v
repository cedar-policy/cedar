(* C09: the JSON-tree decoder of schema fragments inverts the encoder. *)
From Coq Require Import String.
From Cedar Require Import SchemaJson SchemaSynProofs.
Open Scope string_scope.

Definition enc_attr (e : str * (tyx * bool)) : str * json :=
  (fst e, JObj (mkf ((if snd (snd e) then [] else [("required", JBool false)]) ++ enc_fields (fst (snd e))))).

Lemma enc_attrs_map attrs :
  (fix go (l : list (str * (tyx * bool))) : list (str * json) :=
     match l with
     | [] => []
     | (k, (a, r)) :: l' =>
         (k, JObj (mkf ((if r then [] else [("required", JBool false)]) ++ enc_fields a))) :: go l'
     end) attrs = map enc_attr attrs.
Proof.
  induction attrs as [|[k [a r]] l IHl]; [reflexivity|]. exact (f_equal (cons (enc_attr (k, (a, r)))) IHl).
Qed.

Lemma enc_fields_record attrs o :
  enc_fields (XRecord attrs o) =
  ("type", JName (kw "Record")) :: ("attributes", JMap (mke (map enc_attr attrs))) ::
  (if o then [("additionalAttributes", JBool true)] else []).
Proof. cbn [enc_fields]. rewrite enc_attrs_map. reflexivity. Qed.

Lemma dec_tf_set e : dec_tf (mkf (enc_fields (XSet e))) = option_map XSet (dec_tf (mkf (enc_fields e))).
Proof. reflexivity. Qed.

Lemma dec_tf_record attrs o :
  dec_tf (mkf (enc_fields (XRecord attrs o))) =
  option_map (fun a => XRecord a o) (dec_attrs (mke (map enc_attr attrs))).
Proof. rewrite enc_fields_record. destruct o; reflexivity. Qed.

Lemma dec_tf_common n : dec_tf (mkf (enc_fields (XCommon n))) = dec_leaf n.
Proof. reflexivity. Qed.

Lemma dec_attr_enc (a : tyx) (r : bool) :
  dec_tf (mkf (enc_fields a)) = Some a ->
  dec_attr (JObj (mkf ((if r then [] else [("required", JBool false)]) ++ enc_fields a))) = Some (a, r).
Proof.
  intros H. destruct r.
  - cbn [app]. destruct (enc_fields a) as [|[k v] tl]; [discriminate H|].
    cbn [mkf] in *. destruct v; try discriminate H.
    cbn [dec_attr]. rewrite H. reflexivity.
  - cbn [app mkf dec_attr]. cbn [String.eqb Ascii.eqb Bool.eqb]. rewrite H. reflexivity.
Qed.

Lemma dec_attrs_cons k v rest :
  dec_attrs (ECons k v rest) =
  match dec_attr v, dec_attrs rest with Some tr, Some l => Some ((k, tr) :: l) | _, _ => None end.
Proof. reflexivity. Qed.

Lemma dec_attrs_enc attrs :
  (forall k a r, In (k, (a, r)) attrs -> dec_tf (mkf (enc_fields a)) = Some a) ->
  dec_attrs (mke (map enc_attr attrs)) = Some attrs.
Proof.
  induction attrs as [|[k [a r]] l IHl]; intros H; [reflexivity|].
  cbn [map mke enc_attr fst snd].
  rewrite dec_attrs_cons, (dec_attr_enc a r (H k a r (or_introl eq_refl))), IHl; [reflexivity|].
  intros k' a' r' Hin. exact (H k' a' r' (or_intror Hin)).
Qed.

Lemma not_keyword n s : is_type_keyword n = false -> In s type_keywords -> name_eqb n (kw s) = false.
Proof.
  unfold is_type_keyword. intros H Hin.
  destruct (name_eqb n (kw s)) eqn:E; [|reflexivity].
  assert (existsb (fun k => name_eqb n (kw k)) type_keywords = true).
  { apply existsb_exists. exists s. split; assumption. }
  congruence.
Qed.

Lemma dec_tf_enc : forall t, wf_ty t = true -> dec_tf (mkf (enc_fields t)) = Some t.
Proof.
  induction t as [p|n|e IH|attrs o IH|n|n|n] using tyx_ind_attrs; intros H.
  - destruct p; reflexivity.
  - reflexivity.
  - rewrite dec_tf_set, (IH H). reflexivity.
  - rewrite dec_tf_record, dec_attrs_enc; [reflexivity|].
    intros k a r Hin. exact (IH k a r Hin (all_attrs_In _ _ H k a r Hin)).
  - reflexivity.
  - cbn [wf_ty] in H. apply negb_true_iff in H. rewrite dec_tf_common. unfold dec_leaf.
    rewrite (not_keyword n "String" H (or_introl eq_refl)), (not_keyword n "Long" H (or_intror (or_introl eq_refl))),
      (not_keyword n "Boolean" H (or_intror (or_intror (or_introl eq_refl)))), H. reflexivity.
  - reflexivity.
Qed.

Lemma dec_ty_enc t : wf_ty t = true -> dec_ty (enc_ty t) = Some t.
Proof. intros H. unfold enc_ty. cbn [dec_ty]. apply dec_tf_enc, H. Qed.

Lemma dec_names_enc l : dec_names (mkl (map JName l)) = Some l.
Proof. induction l as [|n l IH]; [reflexivity|]. cbn [map mkl dec_names]. rewrite IH. reflexivity. Qed.
Lemma dec_strs_enc l : dec_strs (mkl (map JStr l)) = Some l.
Proof. induction l as [|n l IH]; [reflexivity|]. cbn [map mkl dec_strs]. rewrite IH. reflexivity. Qed.

(* below, `change` states the decoder's next step; unfolding and rewriting under the key-string tests is slow *)
Lemma dec_entdecl_enc e : wf_entdecl e = true -> dec_entdecl (enc_entdecl e) = Some e.
Proof.
  destruct e as [ps shape tags|ch]; intros H.
  - cbn [wf_entdecl] in H. apply andb_true_iff in H. destruct H as [Hs Ht].
    destruct tags as [t|].
    + change (match dec_names (mkl (map JName ps)), dec_ty (enc_ty shape) with
              | Some ps0, Some sh => option_map (fun t0 => EStd ps0 sh (Some t0)) (dec_ty (enc_ty t))
              | _, _ => None
              end = Some (EStd ps shape (Some t))).
      rewrite dec_names_enc, (dec_ty_enc shape Hs), (dec_ty_enc t Ht). reflexivity.
    + change (match dec_names (mkl (map JName ps)), dec_ty (enc_ty shape) with
              | Some ps0, Some sh => Some (EStd ps0 sh None)
              | _, _ => None
              end = Some (EStd ps shape None)).
      rewrite dec_names_enc, (dec_ty_enc shape Hs). reflexivity.
  - change (option_map EEnum (dec_strs (mkl (map JStr ch))) = Some (EEnum ch)).
    rewrite dec_strs_enc. reflexivity.
Qed.

Lemma dec_aref_enc r : dec_aref (enc_aref r) = Some r.
Proof. destruct r as [[t|] id]; reflexivity. Qed.

Lemma dec_arefs_enc l : dec_arefs (mkl (map enc_aref l)) = Some l.
Proof.
  induction l as [|r l IH]; [reflexivity|].
  cbn [map mkl dec_arefs]. rewrite dec_aref_enc, IH. reflexivity.
Qed.

Lemma dec_applies_enc ps rs ctx :
  wf_ty ctx = true ->
  dec_applies (JObj (mkf [("principalTypes", enc_names ps); ("resourceTypes", enc_names rs); ("context", enc_ty ctx)]))
  = Some (ps, rs, ctx).
Proof.
  intros H.
  change (match dec_names (mkl (map JName ps)), dec_names (mkl (map JName rs)), dec_ty (enc_ty ctx) with
          | Some ps0, Some rs0, Some c => Some (ps0, rs0, c)
          | _, _, _ => None
          end = Some (ps, rs, ctx)).
  rewrite !dec_names_enc, (dec_ty_enc ctx H). reflexivity.
Qed.

Lemma dec_actdecl_enc a : wf_actdecl a = true -> dec_actdecl (enc_actdecl a) = Some a.
Proof.
  destruct a as [mo ap]. unfold wf_actdecl, enc_actdecl. cbn [ad_member_of ad_applies].
  destruct mo as [l|]; destruct ap as [[[ps rs] ctx]|]; intros H.
  - change (match dec_arefs (mkl (map enc_aref l)),
                  dec_applies (JObj (mkf [("principalTypes", enc_names ps);
                                          ("resourceTypes", enc_names rs);
                                          ("context", enc_ty ctx)])) with
            | Some m, Some a => Some (mkActDecl (Some m) (Some a))
            | _, _ => None
            end = Some (mkActDecl (Some l) (Some (ps, rs, ctx)))).
    rewrite dec_arefs_enc, (dec_applies_enc ps rs ctx H). reflexivity.
  - change (option_map (fun m => mkActDecl (Some m) None) (dec_arefs (mkl (map enc_aref l)))
            = Some (mkActDecl (Some l) None)).
    rewrite dec_arefs_enc. reflexivity.
  - change (option_map (fun a => mkActDecl None (Some a))
              (dec_applies (JObj (mkf [("principalTypes", enc_names ps);
                                       ("resourceTypes", enc_names rs);
                                       ("context", enc_ty ctx)])))
            = Some (mkActDecl None (Some (ps, rs, ctx)))).
    rewrite (dec_applies_enc ps rs ctx H). reflexivity.
  - reflexivity.
Qed.

Lemma dec_entries_enc {A} (enc : A -> json) (dec : json -> option A) (wf : A -> bool) (l : list (str * A)) :
  (forall a, wf a = true -> dec (enc a) = Some a) ->
  forallb (fun x => wf (snd x)) l = true ->
  dec_entries dec (mke (map (fun x => (fst x, enc (snd x))) l)) = Some l.
Proof.
  intros Hd. induction l as [|[k a] l IH]; intros H; [reflexivity|].
  cbn [forallb snd] in H. apply andb_true_iff in H. destruct H as [Ha Hl].
  cbn [map mke dec_entries fst snd]. rewrite (Hd a Ha), (IH Hl). reflexivity.
Qed.

Lemma dec_nsdef_enc ns : wf_nsdef ns = true -> dec_nsdef (ns_name ns) (enc_nsdef ns) = Some ns.
Proof.
  destruct ns as [n cs es acts]. unfold wf_nsdef. cbn [ns_name ns_commons ns_entities ns_actions].
  intros H. apply andb_true_iff in H. destruct H as [H Ha]. apply andb_true_iff in H. destruct H as [Hc He].
  change (match dec_entries dec_ty (mke (map (fun c => (fst c, enc_ty (snd c))) cs)),
                dec_entries dec_entdecl (mke (map (fun e => (fst e, enc_entdecl (snd e))) es)),
                dec_entries dec_actdecl (mke (map (fun a => (fst a, enc_actdecl (snd a))) acts)) with
          | Some cs0, Some es0, Some acts0 => Some (mkNs n cs0 es0 acts0)
          | _, _, _ => None
          end = Some (mkNs n cs es acts)).
  rewrite (dec_entries_enc enc_ty dec_ty wf_ty cs dec_ty_enc Hc).
  rewrite (dec_entries_enc enc_entdecl dec_entdecl wf_entdecl es dec_entdecl_enc He).
  rewrite (dec_entries_enc enc_actdecl dec_actdecl wf_actdecl acts dec_actdecl_enc Ha).
  reflexivity.
Qed.
