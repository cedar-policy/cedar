(* C15 — batched (loader-driven) authorization equals ordinary authorization.
   Model: model/Batched.v (loader loop of is_authorized_batched at /repo 6dde98e; the partial
   evaluator is abstract).  Lemmas: proofs/BatchedProofs.v.

   Hypotheses (trusted base of C15, each one names the code fact it stands for):
     reinterp_stable         Evaluator::interpret returns Residual::Concrete / Residual::Error unchanged
     partial_needs_unloaded  a residual that is still Partial after interpretation over the partial store
                             st mentions a literal uid that st does not contain
     lits_in_universe        interpretation over a store the loader produced only mentions uids of the
                             universe (uids of store + request + policies); rs0_in_universe: policies too
     loader_answers / loader_in_universe   every requested id is answered; anything else the loader
                             returns is a uid of the universe  (PROVED for loader_of and loader_all)
     U_eqb_spec              the uid equality test is equality
     sound_class / sound_reinterp / good_*   residual soundness of TPE over partial stores obtained
                             from the full store through the loader (this is property C14)
   chain_progress (proofs/BatchedProofs.v) instantiates every hypothesis of c15_progress with the pointer-chain
   evaluator, so these are jointly satisfiable; sound_class / sound_reinterp (c15_agree_partial) are not
   instantiated. *)
From Cedar Require Import Authz Batched BatchedProofs.

Section C15.
  Variable U : Type.
  Variable U_eqb : U -> U -> bool.
  Variable D : Type.
  Variable empty_entity : U -> D.
  Variable residual : Type.
  Variable classify : residual -> rclass.
  Variable lits : residual -> list U.
  Variable reinterp : pstore U D -> residual -> residual.
  Variable rs0 : list (rpol residual).
  Variable l : loader U D.

  Notation batchedX := (batched U U_eqb D empty_entity residual classify lits reinterp rs0).
  Notation batched_fullX := (batched_full U U_eqb D empty_entity residual classify lits reinterp rs0).

  (* the only non-decision outcome is InsufficientIterations (for EVERY loader: the loop cannot fail) ... *)
  Theorem c15_insufficient : forall n, batchedX l n = BInsufficient \/ exists d, batchedX l n = BOk d.
  Proof. intro n. destruct (batchedX l n); [right; eauto|left; reflexivity]. Qed.

  (* ... it is reported only when all n iterations were used (n loader calls were made) ... *)
  Theorem c15_insufficient_uses_budget : forall n,
    batchedX l n = BInsufficient -> length (snd (batched_fullX l n)) = n.
  Proof. apply insufficient_uses_budget. Qed.

  (* ... and the loader is never called more often than the budget *)
  Theorem c15_calls_le_budget : forall n, (length (snd (batched_fullX l n)) <= n)%nat.
  Proof. apply calls_le_budget. Qed.

  (* an entity the loader returns although it is already loaded is ignored (the fix of finding F-1) *)
  Theorem c15_returned_again_ignored : forall st u e ans,
    loaded U U_eqb D st u = true ->
    add_all U U_eqb D empty_entity st ((u, e) :: ans) = add_all U U_eqb D empty_entity st ans.
  Proof. intros st u e ans H. simpl. rewrite H. reflexivity. Qed.

  Hypothesis reinterp_stable : forall st, stable residual classify (reinterp st).

  (* a decision obtained with budget n is obtained with every larger budget *)
  Theorem c15_monotone : forall n k d, batchedX l n = BOk d -> batchedX l (n + k) = BOk d.
  Proof. apply monotone; assumption. Qed.

  Variable Univ : list U.
  Variable good : pstore U D -> Prop.
  Hypothesis U_eqb_spec : forall a b, U_eqb a b = true <-> a = b.
  Hypothesis good_nil : good [].
  Hypothesis good_add : forall st ids, good st -> good (add_all U U_eqb D empty_entity st (l ids)).
  Hypothesis partial_needs_unloaded : forall st r,
    classify (reinterp st r) = RPartial -> exists u, In u (lits (reinterp st r)) /\ loaded U U_eqb D st u = false.
  Hypothesis lits_in_universe : forall st r, good st -> incl (lits r) Univ -> incl (lits (reinterp st r)) Univ.
  Hypothesis rs0_in_universe : forall er, In er rs0 -> incl (lits (snd er)) Univ.
  Hypothesis loader_answers : forall ids u, In u ids -> In u (map fst (l ids)).
  Hypothesis loader_in_universe : forall ids u, In u (map fst (l ids)) -> In u ids \/ In u Univ.

  (* budget > number of uids of the universe => a decision *)
  Theorem c15_progress : forall n, (length Univ < n)%nat -> exists d, batchedX l n = BOk d.
  Proof. eapply progress; eassumption. Qed.
End C15.

Print Assumptions c15_insufficient.
Print Assumptions c15_insufficient_uses_budget.
Print Assumptions c15_calls_le_budget.
Print Assumptions c15_returned_again_ignored.
Print Assumptions c15_monotone.
Print Assumptions c15_progress.

(* the loader hypotheses of c15_progress hold of TestEntityLoader (loader_of) and of a loader that
   returns the whole store every time (loader_all) *)
Theorem c15_loader_of_ok : forall U U_eqb D (Univ : list U) (es : list (U * D)),
  (forall ids u, In u ids -> In u (map fst (loader_of U U_eqb D es ids))) /\
  (forall ids u, In u (map fst (loader_of U U_eqb D es ids)) -> In u ids \/ In u Univ).
Proof. intros U U_eqb D Univ es. split; intros ids u H; rewrite loader_of_fst in *; auto. Qed.

Theorem c15_loader_all_ok : forall U U_eqb D (Univ : list U) (es : list (U * D)),
  incl (map fst es) Univ ->
  (forall ids u, In u ids -> In u (map fst (loader_all U U_eqb D es ids))) /\
  (forall ids u, In u (map fst (loader_all U U_eqb D es ids)) -> In u ids \/ In u Univ).
Proof.
  intros U U_eqb D Univ es Hs. split; intros ids u H; rewrite loader_all_fst in *.
  - apply in_or_app. left. exact H.
  - apply in_app_or in H as [H|H]; [left; exact H|right; apply Hs; exact H].
Qed.

Print Assumptions c15_loader_of_ok.
Print Assumptions c15_loader_all_ok.

Section C15Agree.
  Variable U : Type.
  Variable U_eqb : U -> U -> bool.
  Variable D : Type.
  Variable empty_entity : U -> D.
  Variable residual : Type.
  Variable classify : residual -> rclass.
  Variable lits : residual -> list U.
  Variable reinterp : pstore U D -> residual -> residual.
  Variable rs0 : list (rpol residual).
  Variable l : loader U D.
  Variable conc : residual -> rclass.
  Variable good : pstore U D -> Prop.
  Hypothesis good_nil : good [].
  Hypothesis good_add : forall st ids, good st -> good (add_all U U_eqb D empty_entity st (l ids)).
  Hypothesis sound_class : forall r, classify r <> RPartial -> conc r = classify r.
  Hypothesis sound_reinterp : forall st r, good st -> conc (reinterp st r) = conc r.

  (* whenever the batched evaluation returns a decision it is the decision of the ordinary
     authorizer on the concrete outcomes of the policies — for EVERY budget.  `_partial`: residual
     soundness of the partial evaluator is a hypothesis (property C14), not proved here. *)
  Theorem c15_agree_partial : forall n d,
    batched U U_eqb D empty_entity residual classify lits reinterp rs0 l n = BOk d ->
    d = cdecide residual conc rs0.
  Proof. intros n d H. eapply agree; eauto. Qed.
End C15Agree.

Print Assumptions c15_agree_partial.

(* the hypotheses of c15_progress are satisfiable: the pointer-chain instance of model/Batched.v, with every one of
   them proved *)
Theorem c15_progress_chain : forall (es : list (Z * cdata)) (Univ : list Z) rs0,
  (forall u fl v, lookup Z Z.eqb cdata es u = Some (fl, Some v) -> In v Univ) ->
  (forall er, In er rs0 -> incl (c_lits (snd er)) Univ) ->
  forall n, (length Univ < n)%nat -> exists d, c_batched rs0 es n = BOk d.
Proof. intros es Univ rs0 H1 H2. apply chain_progress; assumption. Qed.

Print Assumptions c15_progress_chain.

Example c15_chain_stable : forall st, stable cres c_classify (c_reinterp st).
Proof. apply c_stable. Qed.

(* store 1 -> 2 -> 3 (flag true); entity 4 does not exist; policies: permit when 1.next.next.flag,
   forbid when 4 has next && 4.next.flag (4 is missing = empty: false) *)
Definition ex_store : list (Z * cdata) :=
  [(1, (Some false, Some 2)); (2, (Some false, Some 3)); (3, (Some true, None))]%Z.
Definition ex_pols : list (effect * cres) := [(Permit, CChain 1%Z 2); (Forbid, CChain 4%Z 1)].

Example c15_chain_budgets :
  map (c_batched ex_pols ex_store) [0; 1; 2; 3; 4; 9]%nat
  = [BInsufficient; BInsufficient; BInsufficient; BOk Allow; BOk Allow; BOk Allow].
Proof. vm_compute. reflexivity. Qed.

(* every hop needs one more iteration: a chain of 5 hops decides with budget 6, not 5 *)
Example c15_chain_five_hops :
  let es := [(1, (Some false, Some 2)); (2, (Some false, Some 3)); (3, (Some false, Some 4));
             (4, (Some false, Some 5)); (5, (Some false, Some 6)); (6, (Some true, None))]%Z in
  (c_batched [(Permit, CChain 1%Z 5)] es 5, c_batched [(Permit, CChain 1%Z 5)] es 6) = (BInsufficient, BOk Allow).
Proof. vm_compute. reflexivity. Qed.

(* a missing principal is an empty entity: `7.flag` with 7 absent is an evaluation error => Deny *)
Example c15_chain_missing : c_batched [(Permit, CChain 7%Z 0)] ex_store 1 = BOk Deny.
Proof. vm_compute. reflexivity. Qed.

(* the witness of finding F-1: a loader that also returns entity 3 every time gives the same decision as the
   exact loader (on a tree without /repo 6dde98e the second iteration fails with a Duplicate error, which the
   check reports) *)
Example c15_extra_entity_same_decision :
  let l := fun ids => (loader_of Z Z.eqb cdata ex_store ids ++ [(3%Z, lookup Z Z.eqb cdata ex_store 3%Z)])%list in
  fst (c_batched_full ex_pols l 3) = BOk Allow /\ c_batched ex_pols ex_store 3 = BOk Allow /\
  fst (c_batched_full ex_pols (loader_all Z Z.eqb cdata ex_store) 1) = BOk Allow.
Proof. vm_compute. repeat split; reflexivity. Qed.
