(* C03 soundness of `if` with boolean-typed branches.  `lub` on records is not covered, which is why the
   fragment asks that the branches be boolean-rooted forms. *)
From Cedar Require Import Typecheck ExprEq TypecheckRules TypecheckProofs TypecheckIf.

Lemma lub_bshape_conf m a b t v :
  bshape a -> bshape b -> lub m a b = Some t -> (TypeConforms v a \/ TypeConforms v b) -> TypeConforms v t.
Proof.
  intros [[xa ->]| ->] [[xb ->]| ->] Hl [Hv|Hv].
  all: try (exfalso; eapply conf_never; eassumption).
  all: destruct (conf_bool _ _ Hv) as (bv & -> & Hbv).
  all: try destruct xa; try destruct xb; destruct m.
  all: cbn in Hl; inversion Hl; subst.
  all: try exact Hv.
  all: apply may_conf; reflexivity.
Qed.

Lemma lub_bshape_at m a b t :
  bshape a -> bshape b -> lub m a b = Some t -> always_true t -> always_true a /\ always_true b.
Proof.
  intros [[xa ->]| ->] [[xb ->]| ->] Hl Hat.
  all: try destruct xa; try destruct xb; destruct m.
  all: cbn in Hl; inversion Hl; subst.
  all: try (destruct Hat as [Hat|Hat]; discriminate Hat).
  all: split; auto with c03.
Qed.

Lemma dyn_if q es c x y tcn ccn t cs' :
  bshape tcn -> dyn_result q es c tcn ccn ->
  (forall b, TypeConforms (VBool b) tcn -> (b = true -> caps_hold q es ccn) ->
             dyn_result q es (if b then x else y) t cs') ->
  dyn_result q es (If c x y) t cs'.
Proof.
  intros Hsc [(e & He & Hal)|(vc & He & Hvc & Hcapc)] Hbr; unfold dyn_result; rewrite eval_if, He.
  - left. exists e. auto.
  - destruct (bshape_value _ _ Hsc Hvc) as [bc ->]. cbn [bind as_bool VBool].
    assert (Hcap : bc = true -> caps_hold q es ccn) by (intros ->; apply Hcapc; reflexivity).
    specialize (Hbr bc Hvc Hcap). destruct bc; exact Hbr.
Qed.

Lemma sound_if_bool m sch env q es c x y :
  bool_typed m sch env x -> bool_typed m sch env y ->
  IHfor m sch env q es c -> IHfor m sch env q es x -> IHfor m sch env q es y ->
  IHfor m sch env q es (If c x y).
Proof.
  intros Hbx Hby IHc IHx IHy cs t cs' Hcs Htc. rewrite tc_if in Htc.
  get_expect Htc tcn ccn Ec Hsc. apply sub_bool_shape in Hsc.
  destruct (IHc _ _ _ Hcs Ec) as [Sc Dc].
  assert (Hx : forall tx cx, tc m sch env (caps_union cs ccn) x = Some (tx, cx) -> caps_hold q es ccn ->
               sound_result q es x tx cx).
  { intros tx cx E Hc. exact (IHx _ _ _ (caps_hold_union _ _ _ _ Hcs Hc) E). }
  apply if_rule_inv in Htc
    as [(-> & tx & cx & Ex & -> & ->)
       |[(-> & Ey)
        |(Ht & Hf & tx & cx & t_y & cy & Ex & Ey & El & ->)]].
  - (* test : True *)
    assert (Hcc : caps_hold q es ccn) by (apply Sc; auto with c03).
    destruct (Hx _ _ Ex Hcc) as [Sx Dx].
    split; [auto with c03|]. eapply dyn_if; [exact Hsc|exact Dc|]. intros b Hb _.
    apply conf_may in Hb. cbn [may_be] in Hb. subst b.
    destruct Dx as [Dx|(vx & He & Hvx & Hcapx)]; [left; exact Dx|].
    right. exists vx. split; [exact He|]. split; [exact Hvx|]. auto with c03.
  - (* test : False *)
    destruct (IHy _ _ _ Hcs Ey) as [Sy Dy]. split; [exact Sy|].
    eapply dyn_if; [exact Hsc|exact Dc|]. intros b Hb _.
    apply conf_may in Hb. destruct b; [discriminate Hb|exact Dy].
  - (* test : Bool, or the uninhabited Never *)
    pose proof (Hbx _ _ _ Ex) as Bx. pose proof (Hby _ _ _ Ey) as By.
    destruct (IHy _ _ _ Hcs Ey) as [Sy Dy].
    split.
    + intros Hat. destruct (lub_bshape_at _ _ _ _ Bx By El Hat) as [_ Hy].
      exact (caps_hold_incl _ _ _ _ (caps_inter_incl_l _ _) (Sy Hy)).
    + eapply dyn_if; [exact Hsc|exact Dc|]. intros [|] _ Hcap.
      * destruct (Hx _ _ Ex (Hcap eq_refl)) as [_ [Dx|(vx & He & Hvx & Hcapx)]]; [left; exact Dx|].
        right. exists vx. split; [exact He|]. split.
        { eapply lub_bshape_conf; [exact Bx|exact By|exact El|left; exact Hvx]. }
        intros Hv. apply (caps_hold_incl _ _ _ _ (caps_inter_incl_r _ _)). apply caps_hold_union; auto.
      * destruct Dy as [Dy|(vy & He & Hvy & Hcapy)]; [left; exact Dy|].
        right. exists vy. split; [exact He|]. split.
        { eapply lub_bshape_conf; [exact Bx|exact By|exact El|right; exact Hvy]. }
        intros Hv. apply (caps_hold_incl _ _ _ _ (caps_inter_incl_l _ _)). auto.
Qed.

Lemma sound_if m sch env q es c x y :
  boolish x = true -> boolish y = true ->
  IHfor m sch env q es c -> IHfor m sch env q es x -> IHfor m sch env q es y ->
  IHfor m sch env q es (If c x y).
Proof.
  intros Hbx Hby. apply sound_if_bool; apply boolish'_typed; unfold boolish'; [rewrite Hbx|rewrite Hby]; reflexivity.
Qed.
