(* Soundness of the partial evaluator peval.  Most arms evaluate an operand first and pass its error on:
   they are instances of `sound_strict`, and the residuals they build are sound because `agree` is a
   congruence for the construct. *)
From Cedar Require Import PE ValueProofs EvalProofs ExprInd PEProofs.

Definition agree {A} (a b : res A) : Prop :=
  match a, b with
  | Ok x, Ok y => x = y
  | Err _, Err _ => True
  | _, _ => False
  end.

Lemma agree_refl {A} (a : res A) : agree a a.
Proof. destruct a; cbn; auto. Qed.

Lemma agree_bind {A B} (a b : res A) (f : A -> res B) : agree a b -> agree (bind a f) (bind b f).
Proof. destruct a, b; cbn; intros H; try contradiction; subst; auto using agree_refl. Qed.

Lemma agree_ok_l {A} v (b : res A) : agree (Ok v) b -> b = Ok v.
Proof. destruct b; cbn; intros H; [subst; reflexivity | contradiction]. Qed.

Lemma agree_err_l {A} x (b : res A) : agree (Err x) b -> exists y, b = Err y.
Proof. destruct b; cbn; intros H; [contradiction | eauto]. Qed.

Lemma agree_trans {A} (a b c : res A) : agree a b -> agree b c -> agree a c.
Proof. destruct a, b, c; cbn; intros; try contradiction; subst; auto. Qed.

Definition and_res (x y : res value) : res value := branch x (as_boolean y) (Ok (VBool false)).
Definition or_res (x y : res value) : res value := branch x (Ok (VBool true)) (as_boolean y).

Lemma branch_agree c c' t t' f f' : agree c c' -> agree t t' -> agree f f' -> agree (branch c t f) (branch c' t' f').
Proof.
  intros H1 H2 H3. destruct c, c'; cbn in H1; try contradiction; subst; cbn; auto.
  destruct (as_bool a0) as [[|]|]; cbn; auto.
Qed.
Lemma and_agree x x' y y' : agree x x' -> agree y y' -> agree (and_res x y) (and_res x' y').
Proof. intros H1 H2. apply branch_agree; [exact H1 | exact (agree_bind _ _ _ H2) | apply agree_refl]. Qed.
Lemma or_agree x x' y y' : agree x x' -> agree y y' -> agree (or_res x y) (or_res x' y').
Proof. intros H1 H2. apply branch_agree; [exact H1 | apply agree_refl | exact (agree_bind _ _ _ H2)]. Qed.

Lemma bind2_agree {A B C} (f : A -> B -> res C) x x' y y' : agree x x' -> agree y y' ->
  agree (do a <- x; do b <- y; f a b) (do a <- x'; do b <- y'; f a b).
Proof.
  intros H1 H2. destruct x, x'; cbn in H1; try contradiction; subst; cbn [bind]; [|exact I].
  apply agree_bind. exact H2.
Qed.

Section SubstEval.
  Variable sg : mapper.
  Variable sl : slotenv.
  Variable q : request.
  Variable es : entities.
  Notation ev := (eval sl q es).
  Notation S := (subst sg).
  Notation wt := (wt_expr sg).

  Lemma wt_list_closed (l : list expr) :
    (fix go (l : list expr) : bool := match l with [] => true | x :: l' => wt x && go l' end) l = forallb wt l.
  Proof. induction l as [|x l IH]; [reflexivity|]. cbn [forallb]. rewrite <- IH. reflexivity. Qed.

  Lemma wt_set l : wt (SetE l) = forallb wt l.
  Proof. apply wt_list_closed. Qed.
  Lemma wt_ext fn l : wt (ExtCall fn l) = forallb wt l.
  Proof. apply wt_list_closed. Qed.
  Lemma wt_record l : wt (RecordE l) = forallb wt (map snd l).
  Proof.
    cbn [wt_expr]. induction l as [|[k x] l IH]; [reflexivity|]. cbn [map forallb snd]. rewrite <- IH. reflexivity.
  Qed.

  Lemma eval_subst_record l :
    ev (S (RecordE l)) = do vs <- mapM ev (map S (map snd l)); Ok (VRecord (combine (map fst l) vs)).
  Proof. cbn [subst]. rewrite eval_record_mapM, !map_map. reflexivity. Qed.

  Lemma subst_mk_and a b : ev (S (mk_and a b)) = and_res (ev (S a)) (ev (S b)).
  Proof.
    destruct (mk_and_cases a b) as [[x [y [-> ->]]] | ->].
    - destruct x, y; reflexivity.
    - cbn [subst]. rewrite eval_mk_and. apply eval_and.
  Qed.
  Lemma subst_mk_or a b : ev (S (mk_or a b)) = or_res (ev (S a)) (ev (S b)).
  Proof.
    destruct (mk_or_cases a b) as [[x [y [-> ->]]] | ->].
    - destruct x, y; reflexivity.
    - cbn [subst]. rewrite eval_mk_or. apply eval_or.
  Qed.
  Lemma wt_mk_and a b : wt (mk_and a b) = wt a && wt b.
  Proof. destruct (mk_and_cases a b) as [[x [y [-> ->]]] | ->]; reflexivity. Qed.
  Lemma wt_mk_or a b : wt (mk_or a b) = wt a && wt b.
  Proof. destruct (mk_or_cases a b) as [[x [y [-> ->]]] | ->]; reflexivity. Qed.

  Lemma v2e_set l : v2e (VSet l) = option_map SetE (omapM v2e l).
  Proof. cbn [v2e]. f_equal. induction l as [|x l IH]; [reflexivity|]. cbn [omapM]. rewrite <- IH. reflexivity. Qed.

  Lemma v2e_record l :
    v2e (VRecord l) = option_map (fun xs => RecordE (combine (map fst l) xs)) (omapM v2e (map snd l)).
  Proof.
    cbn [v2e].
    match goal with |- option_map _ (?go l) = _ =>
      assert (E : go l = option_map (combine (map fst l)) (omapM v2e (map snd l))) end.
    { induction l as [|[k x] l IH]; [reflexivity|]. cbn [map omapM fst snd]. rewrite IH.
      destruct (v2e x); [|reflexivity]. destruct (omapM v2e (map snd l)); reflexivity. }
    rewrite E. destruct (omapM v2e (map snd l)); reflexivity.
  Qed.

  (* what From<Value> for Expr returns denotes the value, is closed, and is well-typed *)
  Definition v2e_good (v : value) (x : expr) : Prop := ev x = Ok v /\ S x = x /\ wt x = true.

  Lemma v2e_good_list l :
    Forall (fun v => forall x, v2e v = Some x -> v2e_good v x) l ->
    forall xs, omapM v2e l = Some xs ->
               mapM ev xs = Ok l /\ map S xs = xs /\ forallb wt xs = true /\ length xs = length l.
  Proof.
    induction 1 as [|v l Hv Hl IH]; intros xs E; cbn [omapM] in E.
    - inversion E. repeat split.
    - destruct (v2e v) as [x|]; [|discriminate]. destruct (omapM v2e l) as [xs'|]; [|discriminate]. inversion E.
      destruct (Hv x eq_refl) as [A [B C]]. destruct (IH xs' eq_refl) as [A' [B' [C' L]]].
      cbn [map mapM forallb length]. rewrite A, B, C, A', B', C', L. repeat split.
  Qed.

  Lemma subst_closed_record (m : list (str * expr)) : map S (map snd m) = map snd m -> S (RecordE m) = RecordE m.
  Proof.
    intros E. cbn [subst]. f_equal. induction m as [|[k x] m IH]; [reflexivity|].
    cbn [map fst snd] in *. injection E as Ex Em. rewrite Ex, (IH Em). reflexivity.
  Qed.

  Lemma v2e_props v : forall x, v2e v = Some x -> v2e_good v x.
  Proof.
    induction v as [p | l IH | l IH | xx] using value_ind'; intros x H.
    - inversion H. repeat split.
    - rewrite v2e_set in H. destruct (omapM v2e l) as [xs|] eqn:G; inversion H.
      destruct (v2e_good_list l IH xs G) as [A [B [C _]]].
      unfold v2e_good. rewrite eval_set_mapM, wt_set. cbn [subst]. rewrite A, B, C. repeat split.
    - rewrite v2e_record in H. destruct (omapM v2e (map snd l)) as [xs|] eqn:G; inversion H.
      destruct (v2e_good_list _ (Forall_snd _ _ IH) xs G) as [A [B [C L]]].
      rewrite map_length, <- (map_length fst) in L. destruct (combine_fst_snd (map fst l) xs L) as [F Sn].
      unfold v2e_good. rewrite eval_record_mapM, wt_record, subst_closed_record, F, Sn, A, C by (rewrite Sn; exact B).
      repeat split. cbn [bind]. rewrite combine_map_fst_snd. reflexivity.
    - discriminate.
  Qed.

  Lemma v2e_sound v x : v2e v = Some x -> ev (S x) = Ok v.
  Proof. intros H. destruct (v2e_props v x H) as [A [B _]]. rewrite B. exact A. Qed.
  Lemma v2e_wt v x : v2e v = Some x -> wt x = true.
  Proof. intros H. apply (v2e_props v x H). Qed.
End SubstEval.

Section Peval.
  Variable sg mu : mapper.
  Variable sl : slotenv.
  Variable pq : prequest.
  Variable pes : pentities.
  Variable q : request.
  Variable es : entities.
  Notation ev := (eval sl q es).
  Notation S := (subst sg).
  Notation wt := (wt_expr sg).
  Notation pe := (peval mu sl pq pes).

  Definition sound_res (p : pres) (c : res value) : Prop :=
    match p with
    | PV v => c = Ok v
    | PR r => agree (ev (S r)) c /\ wt r = true
    | PErr _ => exists x, c = Err x
    | POut => True
    end.
  Definition sound_pres (p : pres) (e : expr) : Prop := sound_res p (ev (S e)).

  (* es is a sg-completion of pes: same entities, tags and ancestors, attributes completed one by one *)
  Definition attr_complete (pv : option pval) (cv : option value) : Prop :=
    match pv with
    | None => cv = None
    | Some (PVal v) => cv = Some v
    | Some (PRes e) => exists v, cv = Some v /\ ev (S e) = Ok v /\ wt e = true
    end.
  Definition store_complete : Prop :=
    forall u,
      match find_pentity u pes with
      | None => find_entity u es = None
      | Some pd => exists d, find_entity u es = Some d /\ etags d = ptags pd /\ eancestors d = pancestors pd /\
                             forall k, attr_complete (lookup k (pattrs pd)) (lookup k (eattrs d))
      end.

  Hypothesis Hmu : forall n v, mu n = Some v -> sg n = Some v.
  (* q is a sg-completion of pq: the partial value of every request variable is sound *)
  Hypothesis Hvar : forall v, sound_pres (peval_var pq v) (Var v).
  Hypothesis Hstore : store_complete.

  Lemma sound_of_res r : sound_res (of_res r) r.
  Proof. destruct r; cbn; eauto. Qed.

  Lemma sound_err e x : sound_res (PErr e) (Err x).
  Proof. cbn. eauto. Qed.

  (* An operator that evaluates an operand first and is strict in it: an error of the operand, or a
     result outside the model, is the result; what it does to a value (kv against k) and to a residual
     (kr) is the business of each arm. *)
  Lemma sound_strict (kv : value -> pres) (kr : expr -> pres) (k : value -> res value) pa c :
    sound_res pa c ->
    (forall v, sound_res (kv v) (k v)) ->
    (forall r, agree (ev (S r)) c -> wt r = true -> sound_res (kr r) (do v <- c; k v)) ->
    sound_res (match pa with PV v => kv v | PR r => kr r | PErr e => PErr e | POut => POut end) (do v <- c; k v).
  Proof.
    destruct pa as [v|r|e|]; cbn [sound_res]; intros H Hv Hr.
    - rewrite H. apply Hv.
    - destruct H. apply Hr; assumption.
    - destruct H as [x H]. rewrite H. cbn. eauto.
    - exact I.
  Qed.

  (* ... and the residual it leaves when it does nothing special to one: itself, applied to the residual *)
  Lemma residual_strict (C : expr -> expr) (k : value -> res value) r c :
    ev (S (C r)) = (do v <- ev (S r); k v) -> wt (C r) = wt r ->
    agree (ev (S r)) c -> wt r = true -> sound_res (PR (C r)) (do v <- c; k v).
  Proof. intros E W A Wr. cbn [sound_res]. rewrite E, W. split; [apply agree_bind; exact A | exact Wr]. Qed.

  Lemma residual_and a b ca cb :
    sound_res (PR a) ca -> sound_res (PR b) cb -> sound_res (PR (mk_and a b)) (and_res ca cb).
  Proof.
    intros [A Wa] [B Wb]. cbn [sound_res]. rewrite subst_mk_and, wt_mk_and, Wa, Wb.
    split; [apply and_agree; assumption | reflexivity].
  Qed.
  Lemma residual_or a b ca cb :
    sound_res (PR a) ca -> sound_res (PR b) cb -> sound_res (PR (mk_or a b)) (or_res ca cb).
  Proof.
    intros [A Wa] [B Wb]. cbn [sound_res]. rewrite subst_mk_or, wt_mk_or, Wa, Wb.
    split; [apply or_agree; assumption | reflexivity].
  Qed.
  Lemma residual_if c t f cc ct cf :
    sound_res (PR c) cc -> sound_res (PR t) ct -> sound_res (PR f) cf -> sound_res (PR (If c t f)) (branch cc ct cf).
  Proof.
    intros [A Wc] [B Wt] [C Wf]. cbn [sound_res subst wt_expr]. rewrite eval_if, Wc, Wt, Wf.
    split; [apply branch_agree; assumption | reflexivity].
  Qed.

  Lemma residual_binapp op a b ca cb :
    sound_res (PR a) ca -> sound_res (PR b) cb ->
    sound_res (PR (BinApp op a b)) (do va <- ca; do vb <- cb; binary_app es op va vb).
  Proof.
    intros [A Wa] [B Wb]. cbn [sound_res subst wt_expr]. rewrite eval_binapp, Wa, Wb.
    split; [apply bind2_agree; assumption | reflexivity].
  Qed.

  Lemma v2e_residual v x : v2e v = Some x -> sound_res (PR x) (Ok v).
  Proof. intros E. split; [rewrite (v2e_sound sg sl q es v x E); reflexivity | exact (v2e_wt sg sl q es v x E)]. Qed.

  Lemma pres_expr_sound b pb b' :
    sound_pres pb b -> wt b = true -> pres_expr b pb = Some b' -> sound_res (PR b') (ev (S b)).
  Proof.
    unfold sound_pres. destruct pb; cbn [sound_res pres_expr]; intros Sd W E.
    - rewrite Sd. apply v2e_residual, E.
    - inversion E; subst. exact Sd.
    - inversion E; subst. split; [apply agree_refl | exact W].
    - discriminate.
  Qed.

  Definition entity_of_type (t : etype) (c : res value) : Prop := exists u, c = Ok (VEntity u) /\ uty u = t.

  Lemma typed_unknown_entity n t c :
    wt (Unknown n (Some (RTEntity t))) = true -> agree (ev (S (Unknown n (Some (RTEntity t))))) c ->
    entity_of_type t c.
  Proof.
    cbn [wt_expr subst]. destruct (sg n) as [v|]; [|discriminate].
    destruct (v2e v) as [x|] eqn:V; [|discriminate]. intros W A.
    destruct (v2e_props sg sl q es v x V) as [E _]. rewrite E in A.
    destruct c; cbn in A; [subst|contradiction].
    destruct a as [[| | |u]| | |]; cbn in W; try discriminate. exists u. split; [reflexivity|].
    apply strs_eqb_eq. exact W.
  Qed.

  (* the three type-based short circuits rest on this: `==` on entities of different types is `false` *)
  Lemma eq_entity_types t1 t2 c1 c2 :
    name_eqb t1 t2 = false -> entity_of_type t1 c1 -> entity_of_type t2 c2 ->
    (do v1 <- c1; do v2 <- c2; binary_app es BEq v1 v2) = Ok (VBool false).
  Proof. intros N [u1 [-> <-]] [u2 [-> <-]]. cbn. unfold uid_eqb. rewrite N. reflexivity. Qed.

  Lemma sc_value_residual_inv op v1 e2 r :
    sc_value_residual op v1 e2 = Some r ->
    exists u n t, op = BEq /\ v1 = VEntity u /\ e2 = Unknown n (Some (RTEntity t)) /\
                  name_eqb (uty u) t = false /\ r = PV (VBool false).
  Proof.
    unfold sc_value_residual. destruct op; try discriminate. destruct v1 as [[| | |u]| | |]; try discriminate.
    destruct e2; try discriminate. destruct ty as [[| | | | |t|]|]; try discriminate.
    destruct (name_eqb (uty u) t) eqn:N; [discriminate|]. intros E. inversion E. exists u, n, t. auto 6.
  Qed.

  Lemma sc_residual_value_inv op e1 v2 r :
    sc_residual_value op e1 v2 = Some r -> sc_value_residual op v2 e1 = Some r.
  Proof. unfold sc_residual_value. destruct op; try discriminate; auto. Qed.

  Lemma sc_two_residuals_inv op e1 e2 r :
    sc_two_residuals op e1 e2 = Some r ->
    exists n1 t1 n2 t2, op = BEq /\ e1 = Unknown n1 (Some (RTEntity t1)) /\ e2 = Unknown n2 (Some (RTEntity t2)) /\
                        name_eqb t1 t2 = false /\ r = PV (VBool false).
  Proof.
    unfold sc_two_residuals. destruct op; try discriminate.
    destruct e1; try discriminate. destruct ty as [[| | | | |t1|]|]; try discriminate.
    destruct e2; try discriminate. destruct ty as [[| | | | |t2|]|]; try discriminate.
    destruct (name_eqb t1 t2) eqn:N; [discriminate|]. intros E. inversion E. exists n, t1, n0, t2. auto 6.
  Qed.

  (* the elements pmapM collects are sound one by one; an error is the error of the whole list *)
  Definition sound_pvals (l : list pval) (items : list expr) : Prop :=
    Forall2 (fun pv x => sound_pres (match pv with PVal v => PV v | PRes r => PR r end) x) l items.
  Definition sound_plist (pl : plist) (items : list expr) : Prop :=
    match pl with
    | PLOk l => sound_pvals l items
    | PLErr _ => exists x, mapM ev (map S items) = Err x
    | PLOut => True
    end.

  Lemma pmapM_sound f items :
    Forall (fun x => sound_pres (f x) x) items -> sound_plist (pmapM f items) items.
  Proof.
    induction 1 as [|x l Hx Hl IH]; [constructor|]. cbn [pmapM]. unfold sound_pres in Hx.
    destruct (f x) as [v|r|e|]; cbn [sound_res] in Hx.
    - destruct (pmapM f l) as [pl|e|]; cbn [sound_plist map mapM] in *; [constructor; assumption | | exact I].
      destruct IH as [y IH]. rewrite Hx, IH. cbn. eauto.
    - destruct (pmapM f l) as [pl|e|]; cbn [sound_plist map mapM] in *; [constructor; assumption | | exact I].
      destruct IH as [y IH]. rewrite IH. destruct (ev (S x)); cbn; eauto.
    - destruct Hx as [y Hx]. cbn [sound_plist map mapM]. rewrite Hx. cbn. eauto.
    - exact I.
  Qed.

  Lemma all_vals_sound l items :
    sound_pvals l items -> forall vs, all_vals l = Some vs -> mapM ev (map S items) = Ok vs.
  Proof.
    induction 1 as [|pv x l items Hx _ IH]; cbn [all_vals]; intros vs E; [inversion E; reflexivity|].
    destruct pv as [v|r]; [|discriminate]. destruct (all_vals l) as [vs'|]; [|discriminate]. inversion E.
    cbn [map mapM]. rewrite Hx, (IH vs' eq_refl). reflexivity.
  Qed.

  (* as expressions, values and residuals alike are residuals that agree with the items *)
  Lemma to_exprs_sound l items :
    sound_pvals l items ->
    forall xs, to_exprs l = Some xs ->
               agree (mapM ev (map S xs)) (mapM ev (map S items)) /\ forallb wt xs = true /\ length xs = length items.
  Proof.
    induction 1 as [|pv x l items Hx _ IH]; cbn [to_exprs]; intros xs E; [inversion E; cbn; auto|].
    assert (G : exists x0 xs', xs = x0 :: xs' /\ sound_res (PR x0) (ev (S x)) /\ to_exprs l = Some xs').
    { unfold sound_pres in Hx. destruct pv as [v|r].
      - destruct (v2e v) as [x0|] eqn:V; [|discriminate]. destruct (to_exprs l) as [xs'|]; [|discriminate].
        inversion E. exists x0, xs'. rewrite Hx. split; [reflexivity|]. split; [apply v2e_residual, V | reflexivity].
      - destruct (to_exprs l) as [xs'|]; [|discriminate].
        inversion E. exists r, xs'. split; [reflexivity|]. split; [exact Hx | reflexivity]. }
    destruct G as (x0 & xs' & -> & [A W] & E'). destruct (IH xs' E') as [A' [W' Ln]].
    cbn [map mapM forallb length]. rewrite W, W', Ln.
    split; [apply (bind2_agree (fun v vs => Ok (v :: vs))); assumption | split; reflexivity].
  Qed.

  Lemma pmapM_rec_map f items : pmapM_rec f items = pmapM f (map snd items).
  Proof.
    induction items as [|[k x] l IH]; [reflexivity|]. cbn [pmapM_rec pmapM map snd]. rewrite IH. reflexivity.
  Qed.

  Lemma finish_sound f items mkv mke (k : list value -> res value) :
    Forall (fun x => sound_pres (f x) x) items ->
    (forall vs, sound_res (mkv vs) (k vs)) ->
    (forall xs, length xs = length items ->
                ev (S (mke xs)) = (do vs <- mapM ev (map S xs); k vs) /\ wt (mke xs) = forallb wt xs) ->
    sound_res (finish (pmapM f items) mkv mke) (do vs <- mapM ev (map S items); k vs).
  Proof.
    intros Hf Hv He. pose proof (pmapM_sound f items Hf) as H.
    unfold finish. destruct (pmapM f items) as [l|e|]; cbn [sound_plist] in H.
    - destruct (all_vals l) as [vs|] eqn:V.
      + rewrite (all_vals_sound l items H vs V). cbn [bind]. apply Hv.
      + destruct (to_exprs l) as [xs|] eqn:X; [|exact I]. destruct (to_exprs_sound l items H xs X) as [A [W Ln]].
        destruct (He xs Ln) as [E1 E2]. cbn [sound_res]. rewrite E1, E2. split; [apply agree_bind; exact A | exact W].
    - destruct H as [y H]. rewrite H. cbn. eauto.
    - exact I.
  Qed.

  Lemma arm_set f items :
    Forall (fun x => wt x = true -> sound_pres (f x) x) items -> wt (SetE items) = true ->
    sound_res (finish (pmapM f items) (fun vs => PV (VSet vs)) SetE) (ev (S (SetE items))).
  Proof.
    intros H W. rewrite wt_set in W. cbn [subst]. rewrite eval_set_mapM.
    apply finish_sound; [exact (Forall_forallb_mp H W) | intros vs; reflexivity |].
    intros xs _. cbn [subst]. rewrite eval_set_mapM, wt_set. split; reflexivity.
  Qed.

  Lemma arm_ext f fn items :
    Forall (fun x => wt x = true -> sound_pres (f x) x) items -> wt (ExtCall fn items) = true ->
    sound_res (finish (pmapM f items) (fun vs => of_res (call_ext fn vs)) (ExtCall fn)) (ev (S (ExtCall fn items))).
  Proof.
    intros H W. rewrite wt_ext in W. cbn [subst]. rewrite eval_ext_mapM.
    apply finish_sound; [exact (Forall_forallb_mp H W) | intros vs; apply sound_of_res |].
    intros xs _. cbn [subst]. rewrite eval_ext_mapM, wt_ext. split; reflexivity.
  Qed.

  Lemma arm_record f items :
    Forall (fun x => wt x = true -> sound_pres (f x) x) (map snd items) -> wt (RecordE items) = true ->
    sound_res (finish (pmapM_rec f items) (fun vs => PV (VRecord (zip_keys items vs)))
                      (fun xs => RecordE (zip_keys items xs)))
              (ev (S (RecordE items))).
  Proof.
    intros H W. rewrite wt_record in W. rewrite eval_subst_record, pmapM_rec_map.
    apply (finish_sound _ (map snd items) _ _ (fun vs => Ok (VRecord (combine (map fst items) vs))));
      [exact (Forall_forallb_mp H W) | intros vs; reflexivity |].
    intros xs Ln. unfold zip_keys. rewrite eval_subst_record, wt_record. rewrite map_length, <- (map_length fst) in Ln.
    destruct (combine_fst_snd (map fst items) xs Ln) as [A B0]. rewrite A, B0. split; reflexivity.
  Qed.

  Lemma proj_list_closed (l : list expr) :
    (fix go (l : list expr) : bool := match l with [] => true | x :: l' => is_projectable x && go l' end) l
    = forallb is_projectable l.
  Proof. induction l as [|x l IH]; [reflexivity|]. cbn [forallb]. rewrite <- IH. reflexivity. Qed.
  Lemma proj_record l : is_projectable (RecordE l) = forallb is_projectable (map snd l).
  Proof.
    cbn [is_projectable]. induction l as [|[k x] l IH]; [reflexivity|].
    cbn [map forallb snd]. rewrite <- IH. reflexivity.
  Qed.

  Lemma projectable_total_list l :
    Forall (fun r => is_projectable r = true -> wt r = true -> exists v, ev (S r) = Ok v) l ->
    forallb is_projectable l = true -> forallb wt l = true -> exists vs, mapM ev (map S l) = Ok vs.
  Proof.
    induction 1 as [|x l Hx Hl IH]; intros P W; [eexists; reflexivity|]. cbn [forallb] in P, W.
    apply andb_prop in P. destruct P as [P1 P2]. apply andb_prop in W. destruct W as [W1 W2].
    destruct (Hx P1 W1) as [v E]. destruct (IH P2 W2) as [vs E']. cbn [map mapM]. rewrite E, E'. eexists; reflexivity.
  Qed.

  Lemma projectable_total r : is_projectable r = true -> wt r = true -> exists v, ev (S r) = Ok v.
  Proof.
    induction r using expr_ind'; intros P W; try discriminate P.
    - eexists; reflexivity.
    - eexists; reflexivity.
    - cbn [wt_expr subst] in *. destruct (sg n) as [v|]; [|discriminate].
      destruct (v2e v) as [x|] eqn:V; [|discriminate].
      exists v. apply (v2e_props sg sl q es v x V).
    - cbn [is_projectable] in P. rewrite proj_list_closed in P. rewrite wt_set in W. cbn [subst]. rewrite eval_set_mapM.
      destruct (projectable_total_list items H P W) as [vs E]. rewrite E. eexists; reflexivity.
    - rewrite proj_record in P. rewrite wt_record in W. rewrite eval_subst_record.
      destruct (projectable_total_list _ (Forall_snd _ _ H) P W) as [vs E]. rewrite E. eexists; reflexivity.
  Qed.

  Lemma projectable_record m c :
    is_projectable (RecordE m) = true -> wt (RecordE m) = true -> agree (ev (S (RecordE m))) c ->
    exists vs, mapM ev (map S (map snd m)) = Ok vs /\ c = Ok (VRecord (combine (map fst m) vs)).
  Proof.
    intros P W A. destruct (projectable_total _ P W) as [rv E]. rewrite eval_subst_record in E, A.
    destruct (mapM ev (map S (map snd m))) as [vs|]; [|discriminate]. exists vs. split; [reflexivity|].
    exact (agree_ok_l _ _ A).
  Qed.

  Lemma record_lookup (m : list (str * expr)) a : forall vs,
    mapM ev (map S (map snd m)) = Ok vs ->
    match lookup a m with
    | None => lookup a (combine (map fst m) vs) = None
    | Some y => exists v, lookup a (combine (map fst m) vs) = Some v /\ ev (S y) = Ok v
    end.
  Proof.
    intros vs E. rewrite mapM_map in E. exact (mapM_lookup _ m a vs E).
  Qed.

  Lemma has_key_record (m : list (str * expr)) a vs :
    mapM ev (map S (map snd m)) = Ok vs -> has_key a (combine (map fst m) vs) = has_key a m.
  Proof.
    intros E. pose proof (record_lookup m a vs E) as H. unfold has_key.
    destruct (lookup a m); [destruct H as [v [H _]]|]; rewrite H; reflexivity.
  Qed.

  Lemma lookup_wt (m : list (str * expr)) a y :
    forallb wt (map snd m) = true -> lookup a m = Some y -> wt y = true.
  Proof.
    induction m as [|[k x] m IH]; [discriminate|]. cbn [map forallb snd lookup]. intros W L.
    apply andb_prop in W. destruct W as [W1 W2]. destruct (str_eqb a k); [inversion L; subst; exact W1 | auto].
  Qed.

  Lemma arm_slot s : sound_pres (pe (Slot s)) (Slot s).
  Proof. unfold sound_pres. cbn [peval subst eval]. destruct (slot_lookup s sl); cbn; eauto. Qed.

  Lemma arm_unknown n ty : wt (Unknown n ty) = true -> sound_pres (unknown_to_pv mu n ty) (Unknown n ty).
  Proof.
    intros W. unfold unknown_to_pv, sound_pres. destruct (mu n) as [v|] eqn:M.
    - apply Hmu in M. cbn [wt_expr] in W. cbn [subst]. rewrite M in *.
      destruct (v2e v) as [x|] eqn:V; [|discriminate].
      destruct (v2e_props sg sl q es v x V) as [A _].
      destruct ty as [t|]; [rewrite W|]; exact A.
    - split; [apply agree_refl | exact W].
  Qed.

  Lemma arm_unapp op a : sound_pres (pe a) a -> sound_pres (pe (UnApp op a)) (UnApp op a).
  Proof.
    intros H. unfold sound_pres. cbn [peval subst]. rewrite eval_unapp. apply sound_strict with (1 := H).
    - intros v. apply sound_of_res.
    - intros r. apply (residual_strict (UnApp op)); reflexivity.
  Qed.

  Lemma arm_like a p : sound_pres (pe a) a -> sound_pres (pe (Like a p)) (Like a p).
  Proof.
    intros H. unfold sound_pres. cbn [peval subst]. rewrite eval_like. apply sound_strict with (1 := H).
    - intros v. destruct (as_string v); cbn; eauto.
    - intros r. apply (residual_strict (fun r => Like r p)); reflexivity.
  Qed.

  Lemma arm_is a t : sound_pres (pe a) a -> sound_pres (pe (Is a t)) (Is a t).
  Proof.
    intros H. unfold sound_pres. cbn [peval subst]. rewrite eval_is. apply sound_strict with (1 := H).
    - intros v. destruct (as_entity v); cbn; eauto.
    - intros r A W. pose proof (residual_strict (fun r => Is r t) _ r _ eq_refl eq_refl A W) as G.
      destruct r; try exact G. destruct ty as [[| | | | |t'|]|]; try exact G.
      destruct (typed_unknown_entity n t' _ W A) as [u [E Ht]].
      cbn [sound_res]. rewrite E. cbn. rewrite Ht. reflexivity.
  Qed.

  Lemma arm_and a b : wt b = true ->
    sound_pres (pe a) a -> sound_pres (pe b) b -> sound_pres (pe (And a b)) (And a b).
  Proof.
    intros Wb Ha Hb. unfold sound_pres. cbn [peval subst]. rewrite eval_mk_and, eval_and.
    apply sound_strict with (1 := Ha).
    - intros v. destruct (as_bool v) as [[|]|x]; cbn [bind]; [|reflexivity | apply sound_err].
      apply sound_strict with (1 := Hb).
      + intros v'. destruct (as_bool v'); cbn; eauto.
      + (* `true && r` is kept as it is *)
        intros rb A W. apply (residual_and (Lit (PBool true)) rb (Ok (VBool true))); split; auto; reflexivity.
    - intros ra A W. destruct (pres_expr b (pe b)) as [b'|] eqn:E; [|exact I].
      apply residual_and; [split; assumption | exact (pres_expr_sound b _ b' Hb Wb E)].
  Qed.

  Lemma arm_or a b : wt b = true ->
    sound_pres (pe a) a -> sound_pres (pe b) b -> sound_pres (pe (Or a b)) (Or a b).
  Proof.
    intros Wb Ha Hb. unfold sound_pres. cbn [peval subst]. rewrite eval_mk_or, eval_or.
    apply sound_strict with (1 := Ha).
    - intros v. destruct (as_bool v) as [[|]|x]; cbn [bind]; [reflexivity | | apply sound_err].
      apply sound_strict with (1 := Hb).
      + intros v'. destruct (as_bool v'); cbn; eauto.
      + intros rb A W. apply (residual_or (Lit (PBool false)) rb (Ok (VBool false))); split; auto; reflexivity.
    - intros ra A W. destruct (pres_expr b (pe b)) as [b'|] eqn:E; [|exact I].
      apply residual_or; [split; assumption | exact (pres_expr_sound b _ b' Hb Wb E)].
  Qed.

  Lemma arm_if c t f : wt t = true -> wt f = true ->
    sound_pres (pe c) c -> sound_pres (pe t) t -> sound_pres (pe f) f -> sound_pres (pe (If c t f)) (If c t f).
  Proof.
    intros Wt Wf Hc Ht Hf. unfold sound_pres. cbn [peval subst]. rewrite eval_if.
    apply sound_strict with (1 := Hc).
    - intros v. destruct (as_bool v) as [[|]|x]; cbn [bind]; [exact Ht | exact Hf | apply sound_err].
    - intros g A W.
      destruct (pres_expr t (pe t)) as [t'|] eqn:E2; [|exact I].
      destruct (pres_expr f (pe f)) as [f'|] eqn:E3; [|exact I].
      apply residual_if.
      + split; assumption.
      + exact (pres_expr_sound t _ t' Ht Wt E2).
      + exact (pres_expr_sound f _ f' Hf Wf E3).
  Qed.

  Lemma find_erase u :
    find_entity u (erase_entities pes) =
    option_map (fun d => mkEdata [] (ptags d) (pancestors d)) (find_pentity u pes).
  Proof.
    unfold erase_entities. induction pes as [|[u' d] l IH]; [reflexivity|].
    cbn [map find_entity find_pentity fst snd]. destruct (uid_eqb u u'); [reflexivity | exact IH].
  Qed.

  (* the binary operators look only at the tags and the ancestors of a stored entity *)
  Lemma erase_tags_ancestors u :
    match find_entity u (erase_entities pes), find_entity u es with
    | Some d', Some d => etags d' = etags d /\ eancestors d' = eancestors d
    | None, None => True
    | _, _ => False
    end.
  Proof.
    rewrite find_erase. pose proof (Hstore u) as H. destruct (find_pentity u pes) as [pd|]; cbn [option_map].
    - destruct H as [d [F [T [A _]]]]. rewrite F. cbn [etags eancestors]. auto.
    - rewrite H. exact I.
  Qed.

  Lemma binary_app_erase op a b : binary_app (erase_entities pes) op a b = binary_app es op a b.
  Proof.
    (* only `in`, getTag and hasTag look at the store, and only once the left operand is an entity u *)
    destruct op; try reflexivity; cbn [binary_app].
    all: destruct (as_entity a) as [u|]; cbn [bind]; [|reflexivity].
    all: pose proof (erase_tags_ancestors u) as H.
    - (* in *)
      unfold eval_in, is_descendant_of.
      destruct (find_entity u (erase_entities pes)), (find_entity u es); try contradiction; [|reflexivity].
      destruct H as [_ A]. rewrite A. reflexivity.
    - (* getTag *)
      destruct (find_entity u (erase_entities pes)), (find_entity u es); try contradiction; [|reflexivity].
      destruct H as [T _]. rewrite T. reflexivity.
    - (* hasTag *)
      destruct (find_entity u (erase_entities pes)), (find_entity u es); try contradiction; [|reflexivity].
      destruct H as [T _]. rewrite T. reflexivity.
  Qed.

  Lemma arm_binapp op a b :
    sound_pres (pe a) a -> sound_pres (pe b) b -> sound_pres (pe (BinApp op a b)) (BinApp op a b).
  Proof.
    intros Ha Hb. unfold sound_pres in *. cbn [peval subst]. rewrite eval_binapp.
    apply sound_strict with (1 := Ha).
    - intros v1. apply sound_strict with (1 := Hb).
      + intros v2. rewrite binary_app_erase. apply sound_of_res.
      + intros e2 A2 W2. destruct (sc_value_residual op v1 e2) as [r|] eqn:SC.
        * (* entity == unknown of another entity type *)
          apply sc_value_residual_inv in SC. destruct SC as (u & n & t & -> & -> & -> & N & ->).
          apply (eq_entity_types (uty u) t (Ok (VEntity u))) with (1 := N).
          -- exists u. auto.
          -- exact (typed_unknown_entity n t _ W2 A2).
        * destruct (v2e v1) as [x1|] eqn:V; [|exact I].
          apply (residual_binapp op x1 e2 (Ok v1)); [apply v2e_residual, V | split; assumption].
    - intros e1 A1 W1. destruct (pe b) as [v2|e2|x|]; cbn [sound_res] in Hb.
      + rewrite Hb. destruct (sc_residual_value op e1 v2) as [r|] eqn:SC.
        * (* the same with the operands exchanged *)
          apply sc_residual_value_inv, sc_value_residual_inv in SC.
          destruct SC as (u & n & t & -> & -> & -> & N & ->).
          rewrite name_eqb_sym in N.
          apply (eq_entity_types t (uty u) _ (Ok (VEntity u))) with (1 := N).
          -- exact (typed_unknown_entity n t _ W1 A1).
          -- exists u. auto.
        * destruct (v2e v2) as [x2|] eqn:V; [|exact I].
          apply residual_binapp; [split; assumption | apply v2e_residual, V].
      + destruct Hb as [A2 W2]. destruct (sc_two_residuals op e1 e2) as [r|] eqn:SC.
        * (* two unknowns of different entity types *)
          apply sc_two_residuals_inv in SC. destruct SC as (n1 & t1 & n2 & t2 & -> & -> & -> & N & ->).
          apply (eq_entity_types t1 t2) with (1 := N).
          -- exact (typed_unknown_entity n1 t1 _ W1 A1).
          -- exact (typed_unknown_entity n2 t2 _ W2 A2).
        * apply residual_binapp; split; assumption.
      + (* the right operand errors: so does the whole application, whatever the left one does *)
        destruct Hb as [y Hb]. rewrite Hb. destruct (ev (S a)); apply sound_err.
      + exact I.
  Qed.

  (* partial_interpret restricted to projectable expressions *)
  Lemma proj_sound y : wt y = true -> sound_pres (peval_proj mu pq y) y.
  Proof.
    induction y using expr_ind'; intros W; try exact I.
    - reflexivity.
    - apply Hvar.
    - apply arm_unknown. exact W.
    - apply arm_set; assumption.
    - apply arm_record; [apply Forall_snd; exact H | exact W].
  Qed.

  Lemma arm_getattr x a : sound_pres (pe x) x -> sound_pres (pe (GetAttr x a)) (GetAttr x a).
  Proof.
    intros H. unfold sound_pres. cbn [peval subst]. rewrite eval_getattr. apply sound_strict with (1 := H).
    - intros v. destruct v as [[| | |u]|l|l|]; try apply sound_err; cbn [get_attr].
      + (* entity *)
        pose proof (Hstore u) as St. destruct (find_pentity u pes) as [pd|].
        * destruct St as [d [F [_ [_ At]]]]. rewrite F. specialize (At a). unfold attr_complete in At.
          destruct (lookup a (pattrs pd)) as [[v|e]|].
          -- rewrite At. reflexivity.
          -- destruct At as [v [L [E W]]]. rewrite L.
             assert (G : sound_res (PR e) (Ok v)) by (cbn; rewrite E; split; [reflexivity | exact W]).
             destruct e; try exact G. cbn [peval_entity_attr]. rewrite <- E. apply arm_unknown. exact W.
          -- rewrite At. apply sound_err.
        * rewrite St. apply sound_err.
      + (* record *)
        destruct (lookup a l); [reflexivity | apply sound_err].
    - intros r A W. pose proof (residual_strict (fun r => GetAttr r a) _ r _ eq_refl eq_refl A W) as G.
      destruct r; try exact G.
      (* the residual is a record literal *)
      destruct (is_projectable (RecordE items)) eqn:P.
      + destruct (projectable_record items _ P W A) as [vs [M Ec]]. rewrite Ec. cbn [bind get_attr].
        pose proof (record_lookup items a vs M) as L. destruct (lookup a items) as [y|] eqn:LK.
        * destruct L as [v [L E']]. rewrite L, <- E'. apply proj_sound.
          rewrite wt_record in W. exact (lookup_wt items a y W LK).
        * rewrite L. apply sound_err.
      + destruct (has_key a items) eqn:K; [exact G|]. rewrite eval_subst_record in A.
        destruct (mapM ev (map S (map snd items))) as [vs|] eqn:M; cbn [bind] in A.
        * rewrite (agree_ok_l _ _ A). cbn [bind get_attr].
          rewrite <- (has_key_record items a vs M) in K. unfold has_key in K.
          destruct (lookup a (combine (map fst items) vs)); [discriminate|]. apply sound_err.
        * destruct (ev (S x)); cbn in A; [contradiction|]. apply sound_err.
  Qed.

  Lemma has_key_complete pd d a :
    (forall k, attr_complete (lookup k (pattrs pd)) (lookup k (eattrs d))) ->
    has_key a (eattrs d) = has_key a (pattrs pd).
  Proof.
    intros At. specialize (At a). unfold has_key, attr_complete in *.
    destruct (lookup a (pattrs pd)) as [[v|e]|]; [| destruct At as [v [At _]] |]; rewrite At; reflexivity.
  Qed.

  Lemma arm_hasattr x a : sound_pres (pe x) x -> sound_pres (pe (HasAttr x a)) (HasAttr x a).
  Proof.
    intros H. unfold sound_pres. cbn [peval subst]. rewrite eval_hasattr. apply sound_strict with (1 := H).
    - intros v. destruct v as [[| | |u]|l|l|]; try apply sound_err; [|reflexivity].
      cbn [has_attr]. pose proof (Hstore u) as St. destruct (find_pentity u pes) as [pd|].
      + destruct St as [d [F [_ [_ At]]]]. rewrite F. cbn [sound_res].
        rewrite (has_key_complete pd d a At). reflexivity.
      + rewrite St. reflexivity.
    - intros r A W. pose proof (residual_strict (fun r => HasAttr r a) _ r _ eq_refl eq_refl A W) as G.
      destruct r; try exact G.
      destruct (is_projectable (RecordE items)) eqn:P; [|exact G].
      destruct (projectable_record items _ P W A) as [vs [M Ec]]. rewrite Ec. cbn [bind has_attr sound_res].
      rewrite (has_key_record items a vs M). reflexivity.
  Qed.

  Theorem peval_sound e : wt e = true -> sound_pres (pe e) e.
  Proof.
    induction e using expr_ind'; intros W.
    - reflexivity.
    - apply Hvar.
    - apply arm_slot.
    - apply arm_unknown. exact W.
    - cbn [wt_expr] in W. apply andb_prop in W. destruct W as [W W3]. apply andb_prop in W. destruct W as [W1 W2].
      apply arm_if; auto.
    - cbn [wt_expr] in W. apply andb_prop in W. destruct W as [W1 W2]. apply arm_and; auto.
    - cbn [wt_expr] in W. apply andb_prop in W. destruct W as [W1 W2]. apply arm_or; auto.
    - apply arm_unapp; auto.
    - cbn [wt_expr] in W. apply andb_prop in W. destruct W as [W1 W2]. apply arm_binapp; auto.
    - (* peval is unfolded by hand here and below: left to `apply`, the step is slow to check *)
      unfold sound_pres. cbn [peval]. apply arm_ext; assumption.
    - apply arm_getattr; auto.
    - apply arm_hasattr; auto.
    - apply arm_like; auto.
    - apply arm_is; auto.
    - unfold sound_pres. cbn [peval]. apply arm_set; assumption.
    - unfold sound_pres. cbn [peval]. apply arm_record; [apply Forall_snd; exact H | exact W].
  Qed.
End Peval.

Definition eval_policy_subst (sg : mapper) (q : request) (es : entities) (p : policy) : res bool :=
  do v <- eval (penv p) q es (subst sg (pcondition p)); as_bool v.

Lemma status_of_pres_sound sg sl q es p c :
  sound_res sg sl q es p c -> status_of_pres p <> SOut -> status_sound (status_of_pres p) (do v <- c; as_bool v).
Proof.
  destruct p as [v|r|e|]; cbn [sound_res status_of_pres]; intros H N.
  - rewrite H. cbn [bind]. destruct (as_bool v) as [[|]|]; cbn; eauto.
  - exact I.
  - destruct H as [x H]. rewrite H. cbn. eauto.
  - congruence.
Qed.

Lemma policy_status_sound (sg mu : mapper) pq pes q es p :
  (forall n v, mu n = Some v -> sg n = Some v) ->
  (forall sl v, sound_pres sg sl q es (peval_var pq v) (Var v)) ->
  (forall sl, store_complete sg sl pes q es) ->
  wt_expr sg (pcondition p) = true ->
  peval_policy mu (penv p) pq pes p <> SOut ->
  status_sound (peval_policy mu (penv p) pq pes p) (eval_policy_subst sg q es p).
Proof.
  intros Hmu Hvar Hst W N. apply (status_of_pres_sound sg (penv p) q es); [apply peval_sound; auto | exact N].
Qed.

(* (q, es) is a sg-completion of (pq, pes), and sg is complete and well-typed for the policies ps
   (whose partial evaluation stays inside the model) *)
Definition completion (sg : mapper) (pq : prequest) (pes : pentities) (q : request) (es : entities)
                      (ps : list policy) : Prop :=
  (forall sl v, sound_pres sg sl q es (peval_var pq v) (Var v)) /\
  (forall sl, store_complete sg sl pes q es) /\
  (forall p, In p ps -> wt_expr sg (pcondition p) = true /\
                        peval_policy no_mapping (penv p) pq pes p <> SOut).

Lemma completion_sound sg pq pes q es ps :
  completion sg pq pes q es ps ->
  forall p, In p ps -> status_sound (peval_policy no_mapping (penv p) pq pes p) (eval_policy_subst sg q es p).
Proof.
  intros [Hv [Hs Hp]] p Hin. destruct (Hp p Hin) as [W N].
  apply policy_status_sound; auto. intros n v E; discriminate E.
Qed.

Lemma completion_weak sg pq pes q es ps :
  completion sg pq pes q es ps ->
  forall p, In p ps -> status_weak (peval_policy no_mapping (penv p) pq pes p) (eval_policy_subst sg q es p).
Proof. intros C p Hin. apply status_sound_weak, (completion_sound _ _ _ _ _ _ C p Hin). Qed.
