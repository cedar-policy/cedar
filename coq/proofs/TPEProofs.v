(* The response of TPE: the four views of the residual policies are one id -> residual map, and the
   decision, of the authorizer and of reauthorization alike, is `dec_from` of the list of (id, effect, outcome):
   it depends on a policy only through "has this effect and is satisfied".  A residual in the true / false /
   error bucket has that outcome everywhere, which gives the definite decisions and the queries; `policy_sound`
   (same id, effect and class of outcome) carries them over to the original policies. *)
From Cedar Require Import TPE BaseFacts.

Lemma view_policy_set_eq m : view_policy_set m = view_policies m.
Proof. unfold view_policy_set, view_policies. rewrite fold_app_map. reflexivity. Qed.

Definition assoc_get (i : str) (l : list (str * residual)) : option residual :=
  option_map snd (find (fun kv => str_eqb i (fst kv)) l).

Lemma view_get_eq m i : view_get m i = assoc_get i (view_policies m).
Proof.
  unfold view_get, assoc_get, view_policies.
  induction m as [|p m IH]; cbn; [reflexivity|].
  destruct (str_eqb i (rp_id p)); cbn; [reflexivity|exact IH].
Qed.

Definition triple := (str * effect * outcome)%type.
Definition cls (b : buckets) (x : triple) : buckets := classify b (fst (fst x)) (snd (fst x)) (snd x).
Definition outcome_sat (o : outcome) : bool := match o with OSat => true | _ => false end.
Definition is_sat_eff (e : effect) (x : triple) : bool := effect_eqb (snd (fst x)) e && outcome_sat (snd x).
Definition nonempty {A} (l : list A) : bool := match l with [] => false | _ => true end.

Definition dec_from (b : buckets) (xs : list triple) : decision :=
  if (nonempty (true_permits b) || existsb (is_sat_eff Permit) xs)
     && negb (nonempty (true_forbids b) || existsb (is_sat_eff Forbid) xs)
  then Allow else Deny.

Lemma nonempty_app {A} (l : list A) x : nonempty (l ++ [x]) = true.
Proof. destruct l; reflexivity. Qed.

Lemma concretize_dec b : rdecision (concretize b) = dec_from b [].
Proof.
  unfold concretize, dec_from; cbn.
  destruct (true_permits b), (true_forbids b); reflexivity.
Qed.

Lemma cls_true_permits b x : nonempty (true_permits (cls b x)) = nonempty (true_permits b) || is_sat_eff Permit x.
Proof. destruct x as [[i [|]] [| |e]]; cbn; rewrite ?nonempty_app, ?orb_true_r, ?orb_false_r; reflexivity. Qed.
Lemma cls_true_forbids b x : nonempty (true_forbids (cls b x)) = nonempty (true_forbids b) || is_sat_eff Forbid x.
Proof. destruct x as [[i [|]] [| |e]]; cbn; rewrite ?nonempty_app, ?orb_true_r, ?orb_false_r; reflexivity. Qed.

Lemma fold_dec xs : forall b, rdecision (concretize (fold_left cls xs b)) = dec_from b xs.
Proof.
  induction xs as [|x xs IH]; intros b; cbn [fold_left].
  - apply concretize_dec.
  - rewrite IH. unfold dec_from. cbn [existsb]. rewrite cls_true_permits, cls_true_forbids, !orb_assoc. reflexivity.
Qed.

Section WithExt.
Variable cx : name -> list value -> res value.

Definition rtriple (q : request) (es : entities) (p : rpolicy) : triple :=
  (rp_id p, rp_effect p, outcome_of (reval_policy cx q es (rp_res p))).
Definition ptriple (q : request) (es : entities) (p : policy) : triple :=
  (pid p, peffect p, outcome_of (eval_policy q es p)).

Lemma reauthorize_dec rs q es :
  rdecision (reauthorize cx rs q es) = dec_from empty_buckets (map (rtriple q es) rs).
Proof. rewrite <- fold_dec, <- fold_left_map. reflexivity. Qed.

Lemma is_authorized_dec ps q es :
  rdecision (is_authorized ps q es) = dec_from empty_buckets (map (ptriple q es) ps).
Proof. rewrite <- fold_dec, <- fold_left_map. reflexivity. Qed.

Lemma bucket_outcome q es r :
  match bucket_of r with
  | KTrue => reval_policy cx q es r = Ok true
  | KFalse => reval_policy cx q es r = Ok false
  | KError => reval_policy cx q es r = Err ErrUnknownFn
  | KResidual => True
  end.
Proof. destruct r as [[[[|]| | |]| | |]| | | | | | | | | | | | | | ]; cbn; trivial. Qed.

Notation in_bucket eff b p := (effect_eqb (rp_effect p) eff && rbucket_eqb (bucket_of (rp_res p)) b).

Lemma true_bucket_sat q es eff p : in_bucket eff KTrue p = true -> is_sat_eff eff (rtriple q es p) = true.
Proof.
  unfold is_sat_eff, rtriple; cbn [fst snd]. pose proof (bucket_outcome q es (rp_res p)) as B.
  destruct (bucket_of (rp_res p)); rewrite ?andb_false_r; try discriminate. rewrite B. exact (fun H => H).
Qed.
Lemma sat_bucket q es eff p : is_sat_eff eff (rtriple q es p) = true ->
  in_bucket eff KTrue p = true \/ in_bucket eff KResidual p = true.
Proof.
  unfold is_sat_eff, rtriple; cbn [fst snd]. pose proof (bucket_outcome q es (rp_res p)) as B.
  intros H. apply andb_prop in H as [-> Hs].
  destruct (bucket_of (rp_res p)); rewrite ?B in Hs; try discriminate Hs; auto.
Qed.

Lemma has_bucket_true_sat q es eff rs :
  has_bucket eff KTrue rs = true -> existsb (is_sat_eff eff) (map (rtriple q es) rs) = true.
Proof.
  unfold has_bucket. rewrite !existsb_exists. intros [p [Hin Hc]].
  exists (rtriple q es p). split; [apply in_map; exact Hin|apply true_bucket_sat; exact Hc].
Qed.

Lemma no_true_no_residual_unsat q es eff rs :
  has_bucket eff KTrue rs = false -> has_bucket eff KResidual rs = false ->
  existsb (is_sat_eff eff) (map (rtriple q es) rs) = false.
Proof.
  intros HT HR. destruct (existsb (is_sat_eff eff) (map (rtriple q es) rs)) eqn:Ex; [|reflexivity].
  apply existsb_exists in Ex as [x [Hin Hs]]. apply in_map_iff in Hin as [p [<- Hin]].
  assert (Hb : has_bucket eff KTrue rs = true \/ has_bucket eff KResidual rs = true).
  { unfold has_bucket. rewrite !existsb_exists. destruct (sat_bucket q es eff p Hs); eauto. }
  destruct Hb; congruence.
Qed.

Lemma decision_reauthorize rs d : tpe_decision rs = Some d ->
  forall q es, rdecision (reauthorize cx rs q es) = d.
Proof.
  intros H q es. rewrite reauthorize_dec. unfold dec_from, empty_buckets; cbn.
  unfold tpe_decision in H.
  destruct (has_bucket Forbid KTrue rs) eqn:TF.
  - inversion H; subst. rewrite (has_bucket_true_sat q es _ _ TF). rewrite andb_false_r. reflexivity.
  - destruct (has_bucket Permit KTrue rs) eqn:TP.
    + destruct (has_bucket Forbid KResidual rs) eqn:RF.
      * destruct (has_bucket Permit KResidual rs); discriminate.
      * assert (d = Allow) by (destruct (has_bucket Permit KResidual rs); inversion H; reflexivity). subst.
        rewrite (has_bucket_true_sat q es _ _ TP), (no_true_no_residual_unsat q es _ _ TF RF). reflexivity.
    + destruct (has_bucket Permit KResidual rs) eqn:RP.
      * destruct (has_bucket Forbid KResidual rs); discriminate.
      * assert (d = Deny) by (destruct (has_bucket Forbid KResidual rs); inversion H; reflexivity). subst.
        rewrite (no_true_no_residual_unsat q es _ _ TP RP). reflexivity.
Qed.

Definition same_class (a b : outcome) : Prop :=
  match a, b with
  | OSat, OSat | OUnsat, OUnsat | OErr _, OErr _ => True
  | _, _ => False
  end.
Definition policy_sound (q : request) (es : entities) (p : policy) (r : rpolicy) : Prop :=
  pid p = rp_id r /\ peffect p = rp_effect r /\
  same_class (outcome_of (eval_policy q es p)) (outcome_of (reval_policy cx q es (rp_res r))).

Lemma same_class_sat a b : same_class a b -> outcome_sat a = outcome_sat b.
Proof. destruct a, b; cbn; tauto. Qed.

Lemma sound_existsb q es eff ps rs : Forall2 (policy_sound q es) ps rs ->
  existsb (is_sat_eff eff) (map (ptriple q es) ps) = existsb (is_sat_eff eff) (map (rtriple q es) rs).
Proof.
  induction 1 as [|p r ps rs [Hi [He Hc]] _ IH]; cbn [map existsb]; [reflexivity|].
  rewrite IH. unfold is_sat_eff, ptriple, rtriple; cbn [fst snd]. rewrite He, (same_class_sat _ _ Hc). reflexivity.
Qed.

Lemma reauthorize_concrete q es ps rs : Forall2 (policy_sound q es) ps rs ->
  rdecision (is_authorized ps q es) = rdecision (reauthorize cx rs q es).
Proof.
  intros H. rewrite is_authorized_dec, reauthorize_dec. unfold dec_from.
  rewrite (sound_existsb q es Permit _ _ H), (sound_existsb q es Forbid _ _ H). reflexivity.
Qed.

Lemma decision_concrete q es ps rs d : Forall2 (policy_sound q es) ps rs ->
  tpe_decision rs = Some d -> rdecision (is_authorized ps q es) = d.
Proof. intros H Hd. rewrite (reauthorize_concrete q es ps rs H). apply decision_reauthorize; exact Hd. Qed.

Lemma query_exact fill hole rs es :
  query cx fill hole rs es =
  filter (fun u => decision_eqb (rdecision (reauthorize cx rs (fill u) es)) Allow)
         (filter (fun u => name_eqb (uty u) hole) (map fst es)).
Proof.
  unfold query. destruct (tpe_decision rs) as [[|]|] eqn:E; [| |reflexivity]; symmetry.
  - apply filter_all. intros u. rewrite (decision_reauthorize rs Allow E). reflexivity.
  - apply filter_none. intros u. rewrite (decision_reauthorize rs Deny E). reflexivity.
Qed.

Lemma query_brute_candidates fill hole ps rs es :
  (forall u, In u (map fst es) -> name_eqb (uty u) hole = true -> Forall2 (policy_sound (fill u) es) ps rs) ->
  query cx fill hole rs es =
  filter (fun u => decision_eqb (rdecision (is_authorized ps (fill u) es)) Allow)
         (filter (fun u => name_eqb (uty u) hole) (map fst es)).
Proof.
  intros H. rewrite query_exact. apply filter_ext_in. intros u Hu. apply filter_In in Hu as [Hin Hty].
  rewrite (reauthorize_concrete (fill u) es ps rs (H u Hin Hty)). reflexivity.
Qed.

End WithExt.
