(* C05, escape stage.  Each printed character has one of three forms (esc_form); each form is read
   back by one iteration of unescape_loop (reads) and passed over by the STRINGLIT recogniser
   (skipped); strings and patterns follow by flat_map. *)
From Coq Require Import Lia.
From Cedar Require Import Relex.
Open Scope N_scope.

Lemma in_range lo hi c : lo <= c <= hi -> (lo <=? c) && (c <=? hi) = true.
Proof. intros [H1 H2]. apply andb_true_iff. split; apply N.leb_le; assumption. Qed.
Lemma not_in_range lo hi c : c < lo \/ hi < c -> (lo <=? c) && (c <=? hi) = false.
Proof. intros H. apply andb_false_iff. destruct H as [H|H]; [left|right]; apply N.leb_gt; exact H. Qed.

Lemma hex_val_digit d : d < 16 -> hex_val (hex_digit d) = Some d.
Proof.
  intros H. unfold hex_val, hex_digit. destruct (N.ltb_spec d 10) as [E|E].
  - rewrite in_range by lia. f_equal. lia.
  - rewrite (not_in_range 48 57), (in_range 97 102) by lia. f_equal. lia.
Qed.

Lemma hex_digit_not c d : d < 16 -> c < 48 \/ 57 < c < 97 \/ 102 < c -> (hex_digit d =? c) = false.
Proof. intros H Hc. apply N.eqb_neq. unfold hex_digit. destruct (N.ltb_spec d 10); lia. Qed.

Definition hex_value (d : N) : Prop := d < 16.

Definition horner (v : N) (ds : list N) : N := fold_left (fun v d => v * 16 + d) ds v.

Lemma horner_push q acc : horner (q / 16) (q mod 16 :: acc) = horner q acc.
Proof. unfold horner. cbn [fold_left]. rewrite (N.mul_comm (q / 16)), <- N.div_mod'. reflexivity. Qed.

Fixpoint hex_digits (k : nat) (q : N) (acc : list N) : list N :=
  match k with
  | O => q mod 16 :: acc
  | S k' => if q / 16 =? 0 then q mod 16 :: acc else hex_digits k' (q / 16) (q mod 16 :: acc)
  end.

Lemma to_hex_digits n : to_hex n = map hex_digit (hex_digits 5 n []).
Proof.
  unfold to_hex. cbn [hex_digits].
  do 5 (destruct (_ =? 0); [reflexivity|]).
  reflexivity.
Qed.

Lemma hex_digits_value k : forall q acc,
  q < 16 ^ N.of_nat (S k) -> horner 0 (hex_digits k q acc) = horner q acc.
Proof.
  induction k as [|k IH]; intros q acc Hq; cbn [hex_digits].
  - rewrite <- (N.div_small q 16 Hq) at 1. apply horner_push.
  - destruct (q / 16 =? 0) eqn:E.
    + apply N.eqb_eq in E. rewrite <- E at 1. apply horner_push.
    + rewrite IH; [apply horner_push|].
      apply N.div_lt_upper_bound; [discriminate|].
      rewrite <- N.pow_succ_r', <- Nat2N.inj_succ. exact Hq.
Qed.

Lemma uni_digits_step d s v n :
  hex_value d -> (n <= 5)%nat -> uni_digits (hex_digit d :: s) v n = uni_digits s (v * 16 + d) (S n).
Proof.
  intros H Hn. cbn [uni_digits]. rewrite !hex_digit_not, hex_val_digit by (assumption || lia).
  replace (Nat.ltb 5 n) with false; [reflexivity|].
  symmetry. apply Nat.ltb_ge. exact Hn.
Qed.

Lemma uni_digits_close s v n : uni_digits (125 :: s) v n = Some (v, s).
Proof. reflexivity. Qed.

Lemma uni_digits_hex ds : forall v n rest,
  Forall hex_value ds -> (n + length ds <= 6)%nat ->
  uni_digits (map hex_digit ds ++ 125 :: rest) v n = Some (horner v ds, rest).
Proof.
  induction ds as [|d ds IH]; intros v n rest Hd Hn; [apply uni_digits_close|].
  inversion Hd; subst. cbn [length] in Hn. cbn [map app].
  rewrite uni_digits_step; [|assumption|lia]. apply IH; [assumption|lia].
Qed.

Lemma unicode_escape_hex d ds rest :
  Forall hex_value (d :: ds) -> (length ds <= 5)%nat ->
  unicode_escape (123 :: map hex_digit (d :: ds) ++ 125 :: rest) =
  if is_scalar (horner d ds) then Some (horner d ds, rest) else None.
Proof.
  intros Hd Hn. inversion Hd; subst. cbn [map app unicode_escape].
  change (negb (123 =? 123)) with false. cbn [negb].
  rewrite !hex_digit_not, hex_val_digit by (assumption || lia).
  rewrite uni_digits_hex; [reflexivity|assumption|lia].
Qed.

Lemma unicode_escape_hex_digits k : forall q acc rest,
  Forall hex_value acc -> (k + length acc <= 5)%nat ->
  unicode_escape (123 :: map hex_digit (hex_digits k q acc) ++ 125 :: rest) =
  if is_scalar (horner 0 (hex_digits k q acc)) then Some (horner 0 (hex_digits k q acc), rest) else None.
Proof.
  assert (forall q acc, Forall hex_value acc -> Forall hex_value (q mod 16 :: acc)) as Hcons.
  { intros q acc Ha. constructor; [apply N.mod_lt; discriminate|exact Ha]. }
  induction k as [|k IH]; intros q acc rest Ha Hn; cbn [hex_digits].
  - apply (unicode_escape_hex (q mod 16) acc); [apply Hcons, Ha|exact Hn].
  - destruct (q / 16 =? 0).
    + apply (unicode_escape_hex (q mod 16) acc); [apply Hcons, Ha|lia].
    + apply IH; [apply Hcons, Ha|cbn [length]; lia].
Qed.

Lemma is_scalar_bound c : is_scalar c = true -> c < 1114112.
Proof.
  unfold is_scalar. intros H. apply orb_true_iff in H. destruct H as [H|H].
  - apply N.ltb_lt in H. lia.
  - apply andb_true_iff in H. apply N.ltb_lt, H.
Qed.

Lemma unicode_to_hex c rest :
  is_scalar c = true -> unicode_escape (123 :: to_hex c ++ 125 :: rest) = Some (c, rest).
Proof.
  intros Hs. rewrite to_hex_digits, unicode_escape_hex_digits by (constructor || apply le_n).
  rewrite hex_digits_value; [cbn [horner fold_left]; rewrite Hs; reflexivity|].
  eapply N.lt_trans; [apply is_scalar_bound, Hs|reflexivity].
Qed.

Definition lift_cons (u : uelem) (r : ures (list uelem)) : ures (list uelem) :=
  match r with UOk l => UOk (u :: l) | UErr => UErr | UFuel => UFuel end.

Definition reads (t : str) (u : uelem) : Prop :=
  forall rest f, unescape_loop (S f) (t ++ rest) = lift_cons u (unescape_loop f rest).

(* for empty t, rest and no fuel, reads t u would equate UOk [] with UFuel *)
Lemma reads_nonempty t u : reads t u -> (1 <= length t)%nat.
Proof. intros H. specialize (H [] 0%nat). destruct t; [discriminate H|cbn [length]; lia]. Qed.

Lemma reads_plain c : c <> 92 -> c <> 34 -> c <> 13 -> reads [c] (UChar c).
Proof.
  intros H1 H2 H3 rest f. apply N.eqb_neq in H1, H2, H3. cbn [app unescape_loop].
  rewrite H1, H2, H3. reflexivity.
Qed.

Lemma loop_escape s u rest f :
  starts_with_nl s = false -> unescape_1 s = Some (u, rest) ->
  unescape_loop (S f) (92 :: s) = lift_cons u (unescape_loop f rest).
Proof.
  intros Hn H1. cbn [unescape_loop]. change (92 =? 92) with true. cbv iota. rewrite Hn, H1.
  reflexivity.
Qed.

Lemma unescape_1_u s :
  unescape_1 (117 :: s) =
  match unicode_escape s with Some (v, r) => Some (UChar v, r) | None => None end.
Proof. reflexivity. Qed.

Lemma reads_unicode c : is_scalar c = true -> reads (esc_unicode c) (UChar c).
Proof.
  intros Hs rest f. unfold esc_unicode. rewrite <- !app_assoc. cbn [app].
  apply loop_escape; [reflexivity|].
  rewrite unescape_1_u, unicode_to_hex by exact Hs. reflexivity.
Qed.

Inductive esc_form (c : N) : str -> Prop :=
| esc_letter e :
    (e =? 10) = false -> (forall rest, unescape_1 (e :: rest) = Some (UChar c, rest)) ->
    esc_form c [92; e]
| esc_hex : esc_form c (esc_unicode c)
| esc_self : c <> 92 -> c <> 34 -> c <> 13 -> esc_form c [c].

Lemma reads_esc_form c t : esc_form c t -> is_scalar c = true -> reads t (UChar c).
Proof.
  intros [e He H1| |H1 H2 H3] Hs.
  - intros rest f. apply loop_escape; [exact He|apply H1].
  - apply reads_unicode, Hs.
  - apply reads_plain; assumption.
Qed.

(* every element takes one iteration and at least one character (reads_nonempty): fuel above the
   length of the text suffices *)
Lemma loop_flat_map {A : Type} (show : A -> str) (elem : A -> uelem) (ok : A -> bool) :
  (forall a, ok a = true -> reads (show a) (elem a)) ->
  forall l f, forallb ok l = true -> (length (flat_map show l) < f)%nat ->
              unescape_loop f (flat_map show l) = UOk (map elem l).
Proof.
  intros step. induction l as [|a l IH]; intros f Hw Hf.
  - destruct f; [inversion Hf|]. reflexivity.
  - destruct f; [inversion Hf|]. cbn [flat_map map].
    cbn [forallb] in Hw. apply andb_true_iff in Hw. destruct Hw as [Ha Hw].
    rewrite (step a Ha).
    rewrite IH; [reflexivity|exact Hw|].
    cbn [flat_map] in Hf. rewrite app_length in Hf. pose proof (reads_nonempty _ _ (step a Ha)). lia.
Qed.

Lemma elems_to_str_chars s : elems_to_str (map UChar s) = Some s.
Proof. induction s as [|c s IH]; [reflexivity|]. cbn [map elems_to_str]. rewrite IH. reflexivity. Qed.

Definition pat_elem (pe : patelem) : uelem :=
  match pe with
  | PStar => UChar 42
  | PChar c => if c =? 42 then UStarEsc else UChar c
  end.

Lemma elem_to_pat_elem pe : elem_to_pat (pat_elem pe) = pe.
Proof.
  destruct pe as [c|]; [|reflexivity]. cbn [pat_elem]. destruct (c =? 42) eqn:E.
  - apply N.eqb_eq in E. subst c. reflexivity.
  - cbn [elem_to_pat]. rewrite E. reflexivity.
Qed.

Definition skipped (t : str) : Prop :=
  forall rest, stringlit_inside (t ++ rest) = stringlit_inside rest.

Lemma skipped_accepted t : skipped t -> stringlit_inside t = true.
Proof. intros H. rewrite <- (app_nil_r t). apply H. Qed.

Lemma skipped_app t u : skipped t -> skipped u -> skipped (t ++ u).
Proof. intros Ht Hu rest. rewrite <- app_assoc, Ht. apply Hu. Qed.

Lemma skipped_flat_map {A : Type} (show : A -> str) l :
  (forall a, skipped (show a)) -> skipped (flat_map show l).
Proof.
  intros H. induction l as [|a l IH]; [intros rest; reflexivity|].
  cbn [flat_map]. apply skipped_app; [apply H|exact IH].
Qed.

Lemma skipped_escape e : (e =? 10) = false -> skipped [92; e].
Proof.
  intros He rest. cbn [app stringlit_inside]. change (92 =? 92) with true. cbv iota.
  rewrite He. reflexivity.
Qed.

Definition plain (c : N) : bool := negb (c =? 92) && negb (c =? 34).

Lemma skipped_plain l : forallb plain l = true -> skipped l.
Proof.
  intros H rest. induction l as [|c l IH]; [reflexivity|].
  cbn [forallb] in H. apply andb_true_iff in H. destruct H as [Hc Hl].
  unfold plain in Hc. apply andb_true_iff in Hc. destruct Hc as [H1 H2].
  apply negb_true_iff in H1. apply negb_true_iff in H2.
  cbn [app stringlit_inside]. rewrite H1, H2. apply IH. exact Hl.
Qed.

Lemma hex_digit_plain d : plain (hex_digit d) = true.
Proof. unfold plain, hex_digit. destruct (N.ltb_spec d 10); rewrite !(proj2 (N.eqb_neq _ _)) by lia; reflexivity. Qed.

Lemma to_hex_plain c : forallb plain (to_hex c) = true.
Proof.
  rewrite to_hex_digits. induction (hex_digits 5 c []) as [|d ds IH]; [reflexivity|].
  cbn [map forallb]. rewrite hex_digit_plain. exact IH.
Qed.

Lemma skipped_unicode c : skipped (esc_unicode c).
Proof.
  change (esc_unicode c) with ([92; 117] ++ 123 :: to_hex c ++ [125]).
  apply skipped_app; [apply skipped_escape; reflexivity|]. apply skipped_plain.
  cbn [forallb]. rewrite forallb_app, to_hex_plain. reflexivity.
Qed.

Lemma skipped_esc_form c t : esc_form c t -> skipped t.
Proof.
  intros [e He _| |H1 H2 _].
  - apply skipped_escape, He.
  - apply skipped_unicode.
  - apply N.eqb_neq in H1, H2. apply skipped_plain.
    cbn [forallb]. unfold plain. rewrite H1, H2. reflexivity.
Qed.

Section WithPredicates.
  Variable np : N -> bool.
  Variable ge : N -> bool.

  Lemma esc_char_form g c : esc_form c (esc_char np ge g c).
  Proof.
    unfold esc_char.
    destruct (N.eqb_spec c 0) as [->|_]; [apply (esc_letter _ 48); reflexivity|].
    destruct (N.eqb_spec c 9) as [->|_]; [apply (esc_letter _ 116); reflexivity|].
    destruct (N.eqb_spec c 13) as [->|H13]; [apply (esc_letter _ 114); reflexivity|].
    destruct (N.eqb_spec c 10) as [->|_]; [apply (esc_letter _ 110); reflexivity|].
    destruct (N.eqb_spec c 92) as [->|H92]; [apply (esc_letter _ 92); reflexivity|].
    destruct (N.eqb_spec c 34) as [->|H34]; [apply (esc_letter _ 34); reflexivity|].
    destruct (N.eqb_spec c 39) as [->|_]; [apply (esc_letter _ 39); reflexivity|].
    destruct (g && ge c); [apply esc_hex|].
    destruct (np c); [apply esc_hex|].
    apply esc_self; assumption.
  Qed.

  Lemma reads_esc_char g c : is_scalar c = true -> reads (esc_char np ge g c) (UChar c).
  Proof. apply reads_esc_form, esc_char_form. Qed.

  Lemma unescape_elems_escape s :
    wf_str s = true -> unescape_elems (escape_debug np ge s) = UOk (map UChar s).
  Proof.
    intros Hw. unfold unescape_elems, escape_debug. destruct s as [|c s]; [reflexivity|].
    cbn [wf_str forallb] in Hw. apply andb_true_iff in Hw. destruct Hw as [Hc Hw].
    pose proof (reads_esc_char true c Hc) as H1. rewrite H1.
    rewrite (loop_flat_map _ UChar is_scalar); [reflexivity|apply reads_esc_char|exact Hw|].
    rewrite app_length. pose proof (reads_nonempty _ _ H1). lia.
  Qed.

  Theorem unescape_escape s :
    wf_str s = true -> to_unescaped_string (escape_debug np ge s) = UOk s.
  Proof.
    intros Hw. unfold to_unescaped_string. rewrite unescape_elems_escape by assumption.
    rewrite elems_to_str_chars. reflexivity.
  Qed.

  Lemma reads_show_patelem pe :
    match pe with PChar c => is_scalar c | PStar => true end = true -> reads (show_patelem np ge pe) (pat_elem pe).
  Proof.
    intros Hw. destruct pe as [c|]; cbn [show_patelem pat_elem].
    - destruct (c =? 42).
      + intros rest f. apply loop_escape; reflexivity.
      + apply reads_esc_char, Hw.
    - apply reads_plain; discriminate.
  Qed.

  Theorem to_pattern_show p :
    wf_pattern p = true -> to_pattern (show_pattern np ge p) = UOk p.
  Proof.
    intros Hw. unfold to_pattern, unescape_elems, show_pattern.
    rewrite (loop_flat_map _ pat_elem _ reads_show_patelem p _ Hw (le_n _)).
    rewrite map_map, (map_ext _ id elem_to_pat_elem), map_id. reflexivity.
  Qed.

  Lemma skipped_esc_char g c : skipped (esc_char np ge g c).
  Proof. eapply skipped_esc_form, esc_char_form. Qed.

  Theorem escape_debug_relexes s : stringlit_inside (escape_debug np ge s) = true.
  Proof.
    unfold escape_debug. destruct s as [|c s]; [reflexivity|].
    apply skipped_accepted, skipped_app; [|apply skipped_flat_map; intros a]; apply skipped_esc_char.
  Qed.

  Lemma skipped_show_patelem pe : skipped (show_patelem np ge pe).
  Proof.
    destruct pe as [c|]; cbn [show_patelem]; [|apply skipped_plain; reflexivity].
    destruct (c =? 42); [apply skipped_escape; reflexivity|apply skipped_esc_char].
  Qed.

  Theorem show_pattern_relexes p : stringlit_inside (show_pattern np ge p) = true.
  Proof. apply skipped_accepted, skipped_flat_map, skipped_show_patelem. Qed.
End WithPredicates.
