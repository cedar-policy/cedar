(* The partial evaluator is abstract: the Hypotheses of Sections Loop, Progress and Agree are the trusted base
   of C15 (what each stands for: head of props/C15_Batched.v, notes/C15.md).
   Agreement: a classifier that `refines` another gets the same decision from the table; a stable re-interpretation
   refines the classes before it, and the concrete outcomes refine the classes of sound residuals.
   Progress: under `inv` every Partial residual `asks` for a uid the store lacks, so each non-final iteration
   adds a uid, and a store of distinct uids of Univ has at most `length Univ` of them. *)
From Cedar Require Import Authz Batched BaseFacts.

Section BatchedProofs.
  Variable U : Type.
  Variable U_eqb : U -> U -> bool.
  Variable D : Type.
  Variable empty_entity : U -> D.
  Variable residual : Type.
  Variable classify : residual -> rclass.
  Variable lits : residual -> list U.
  Variable reinterp : pstore U D -> residual -> residual.
  Variable rs0 : list (rpol residual).

  Notation loopX := (loop U U_eqb D empty_entity residual classify lits reinterp).
  Notation decideX := (decide residual classify).
  Notation hasX := (has residual classify).
  Notation batchedX := (batched U U_eqb D empty_entity residual classify lits reinterp rs0).
  Notation batched_fullX := (batched_full U U_eqb D empty_entity residual classify lits reinterp rs0).
  Notation initX := (init U D residual reinterp rs0).
  Notation add_allX := (add_all U U_eqb D empty_entity).
  Notation to_loadX := (to_load U U_eqb D residual lits).
  Notation loadedX := (loaded U U_eqb D).
  Notation no_partialX := (no_partial residual classify).

  Definition mapf (f : residual -> residual) (rs : list (rpol residual)) : list (rpol residual) :=
    map (fun er => (fst er, f (snd er))) rs.

  Definition stable (f : residual -> residual) : Prop := forall r, classify r <> RPartial -> f r = r.

  Lemma rclass_eqb_eq : forall a b, rclass_eqb a b = true <-> a = b.
  Proof. intros a b; destruct a, b; simpl; split; intro H; try reflexivity; try discriminate. Qed.

  Lemma stable_partial : forall f r, stable f -> classify (f r) = RPartial -> classify r = RPartial.
  Proof.
    intros f r Hs H. destruct (rclass_eqb (classify r) RPartial) eqn:Q; [apply rclass_eqb_eq; exact Q|].
    rewrite Hs in H; [exact H|]. intro E. rewrite E in Q. discriminate.
  Qed.

  Definition refines (cls cls2 : residual -> rclass) : Prop := forall r, cls r <> RPartial -> cls2 r = cls r.

  Lemma has_mapf : forall cls p c f rs,
    has residual cls p c (mapf f rs) = has residual (fun r => cls (f r)) p c rs.
  Proof.
    intros cls p c f rs. unfold has, mapf. induction rs as [|er tl IH]; simpl; [reflexivity|].
    rewrite IH. reflexivity.
  Qed.

  Lemma has_refines_true : forall cls cls2 p rs, refines cls cls2 ->
    has residual cls p RTrue rs = true -> has residual cls2 p RTrue rs = true.
  Proof.
    intros cls cls2 p rs R. unfold has. rewrite !existsb_exists. intros [er [Hin H]].
    exists er. split; [exact Hin|]. apply andb_true_iff in H. destruct H as [Hp Hr].
    apply rclass_eqb_eq in Hr. rewrite Hp, R, Hr by (rewrite Hr; discriminate). reflexivity.
  Qed.

  Lemma has_refines_same : forall cls cls2 p c rs, refines cls cls2 ->
    has residual cls p RPartial rs = false -> has residual cls2 p c rs = has residual cls p c rs.
  Proof.
    intros cls cls2 p c rs R. unfold has. induction rs as [|[e r] tl IH]; simpl; intro H; [reflexivity|].
    apply orb_false_iff in H. destruct H as [H1 H2]. rewrite (IH H2). f_equal.
    destruct (p e); simpl in *; [|reflexivity].
    rewrite R; [reflexivity|]. intro E. rewrite E in H1. discriminate.
  Qed.

  Lemma decide_refines : forall cls cls2 rs d, refines cls cls2 ->
    decide residual cls rs = Some d -> decide residual cls2 rs = Some d.
  Proof.
    intros cls cls2 rs d R. unfold decide.
    destruct (has residual cls eff_is_forbid RTrue rs) eqn:tf.
    - rewrite (has_refines_true cls cls2 _ rs R tf). trivial.
    - destruct (has residual cls eff_is_permit RTrue rs) eqn:tp.
      + (* Allow: no forbid is open, so cls2 has no satisfied forbid either *)
        destruct (has residual cls eff_is_forbid RPartial rs) eqn:rf.
        * destruct (has residual cls eff_is_permit RPartial rs); discriminate.
        * rewrite (has_refines_same _ _ _ RTrue _ R rf), (has_refines_same _ _ _ RPartial _ R rf), tf, rf.
          rewrite (has_refines_true cls cls2 _ rs R tp).
          destruct (has residual cls eff_is_permit RPartial rs), (has residual cls2 eff_is_permit RPartial rs); trivial.
      + (* Deny for want of a permit: none is open, so cls2 has no satisfied permit either *)
        destruct (has residual cls eff_is_permit RPartial rs) eqn:rp.
        * destruct (has residual cls eff_is_forbid RPartial rs); discriminate.
        * rewrite (has_refines_same _ _ _ RTrue _ R rp), (has_refines_same _ _ _ RPartial _ R rp), tp, rp.
          destruct (has residual cls eff_is_forbid RPartial rs), (has residual cls2 eff_is_forbid RTrue rs),
            (has residual cls2 eff_is_forbid RPartial rs); trivial.
  Qed.

  Lemma decide_stable : forall f rs d, stable f -> decideX rs = Some d -> decideX (mapf f rs) = Some d.
  Proof.
    intros f rs d Hs H. unfold decide. rewrite !has_mapf.
    apply (decide_refines classify (fun r => classify (f r))); [|exact H].
    intros r Hr. rewrite (Hs r Hr). reflexivity.
  Qed.

  Lemma decide_decision : forall cls rs d, decide residual cls rs = Some d ->
    d = if has residual cls eff_is_forbid RTrue rs then Deny
        else if has residual cls eff_is_permit RTrue rs then Allow else Deny.
  Proof.
    intros cls rs d. unfold decide.
    destruct (has residual cls eff_is_forbid RTrue rs), (has residual cls eff_is_permit RTrue rs),
      (has residual cls eff_is_permit RPartial rs), (has residual cls eff_is_forbid RPartial rs); congruence.
  Qed.

  Lemma has_partial_none : forall p rs, no_partialX rs = true -> hasX p RPartial rs = false.
  Proof.
    intros p rs. unfold no_partial, has, is_partial. induction rs as [|[e r] tl IH]; simpl; intro H; [reflexivity|].
    apply andb_true_iff in H. destruct H as [H1 H2]. rewrite (IH H2).
    apply negb_true_iff in H1. rewrite H1. rewrite andb_false_r. reflexivity.
  Qed.

  (* no Partial residual left: Response::new "guaranteed to arrive at a Decision" *)
  Lemma decide_no_partial : forall rs, no_partialX rs = true -> exists d, decideX rs = Some d.
  Proof.
    intros rs H. unfold decide. rewrite (has_partial_none eff_is_permit rs H), (has_partial_none eff_is_forbid rs H).
    destruct (hasX eff_is_forbid RTrue rs); destruct (hasX eff_is_permit RTrue rs); eauto.
  Qed.

  Section Loop.
    Variable l : loader U D.
    Hypothesis reinterp_stable : forall st, stable (reinterp st).

    Definition next_store (st : pstore U D) (rs : list (rpol residual)) : pstore U D :=
      add_allX st (l (to_loadX st rs)).
    Definition next_rs (st : pstore U D) (rs : list (rpol residual)) : list (rpol residual) :=
      mapf (reinterp (next_store st rs)) rs.

    Lemma loop_S : forall n st rs calls,
      loopX l (S n) st rs calls =
      if no_partialX (next_rs st rs) then (next_store st rs, next_rs st rs, (calls ++ [to_loadX st rs])%list)
      else loopX l n (next_store st rs) (next_rs st rs) (calls ++ [to_loadX st rs])%list.
    Proof. reflexivity. Qed.

    Lemma loop_invariant : forall P : pstore U D -> list (rpol residual) -> Prop,
      (forall st rs, P st rs -> P (next_store st rs) (next_rs st rs)) ->
      forall n st rs calls, P st rs ->
      P (fst (fst (loopX l n st rs calls))) (snd (fst (loopX l n st rs calls))).
    Proof.
      intros P Hstep. induction n as [|n IH]; intros st rs calls H; [exact H|].
      rewrite loop_S. apply Hstep in H.
      destruct (no_partialX (next_rs st rs)); [exact H|apply IH; exact H].
    Qed.

    Lemma loop_calls : forall n st rs calls st1 rs1 c1,
      loopX l n st rs calls = (st1, rs1, c1) ->
      (length c1 <= n + length calls)%nat /\
      (no_partialX rs1 = true \/ length c1 = (n + length calls)%nat).
    Proof.
      induction n as [|n IH]; intros st rs calls st1 rs1 c1 H.
      - injection H as _ _ <-. split; [apply le_n|right; reflexivity].
      - rewrite loop_S in H. destruct (no_partialX (next_rs st rs)) eqn:Hn.
        + injection H as _ <- <-. rewrite last_length. split; [apply le_n_S, Nat.le_add_l|left; exact Hn].
        + apply IH in H. rewrite last_length, Nat.add_succ_r in H. exact H.
    Qed.

    Lemma loop_plus : forall k n st rs calls,
      loopX l (n + k) st rs calls = loopX l n st rs calls \/
      loopX l (n + k) st rs calls = (let '(st1, rs1, c1) := loopX l n st rs calls in loopX l k st1 rs1 c1).
    Proof.
      intro k. induction n as [|n IH]; intros st rs calls; [right; reflexivity|].
      cbn [Nat.add]. rewrite !loop_S.
      destruct (no_partialX (next_rs st rs)); [left; reflexivity|apply IH].
    Qed.

    Lemma loop_decided : forall n st rs calls d,
      decideX rs = Some d -> decideX (snd (fst (loopX l n st rs calls))) = Some d.
    Proof.
      intros n st rs calls d. apply (loop_invariant (fun _ rs1 => decideX rs1 = Some d)).
      intros st1 rs1 H. apply decide_stable; [apply reinterp_stable|exact H].
    Qed.

    Lemma batched_ok : forall n d,
      batchedX l n = BOk d <-> decideX (snd (fst (loopX l n [] initX []))) = Some d.
    Proof.
      intros n d. unfold batched, batched_full.
      destruct (loopX l n [] initX []) as [[st1 rs1] c1]. simpl.
      destruct (decideX rs1); split; congruence.
    Qed.

    Theorem monotone : forall n k d, batchedX l n = BOk d -> batchedX l (n + k) = BOk d.
    Proof.
      intros n k d H. apply batched_ok. apply batched_ok in H.
      destruct (loop_plus k n [] initX []) as [E|E]; rewrite E; [exact H|].
      destruct (loopX l n [] initX []) as [[st1 rs1] c1]. apply loop_decided. exact H.
    Qed.

    Theorem insufficient_uses_budget : forall n,
      batchedX l n = BInsufficient -> length (snd (batched_fullX l n)) = n.
    Proof.
      intro n. unfold batched, batched_full.
      destruct (loopX l n [] initX []) as [[st1 rs1] c1] eqn:E; simpl.
      destruct (loop_calls _ _ _ _ _ _ _ E) as [_ [H|H]]; [|intros _; rewrite H; apply Nat.add_0_r].
      destruct (decide_no_partial rs1 H) as [d Hd]. rewrite Hd. discriminate.
    Qed.

    Theorem calls_le_budget : forall n, (length (snd (batched_fullX l n)) <= n)%nat.
    Proof.
      intro n. unfold batched_full.
      destruct (loopX l n [] initX []) as [[st1 rs1] c1] eqn:E; simpl.
      rewrite <- (Nat.add_0_r n). apply (loop_calls _ _ _ _ _ _ _ E).
    Qed.
  End Loop.

  Section Progress.
    Variable l : loader U D.
    Variable Univ : list U.                       (* the uids occurring in store + request + policies *)
    Variable good : pstore U D -> Prop.           (* any invariant of the partial stores the loop builds *)
    Hypothesis U_eqb_spec : forall a b, U_eqb a b = true <-> a = b.
    Hypothesis reinterp_stable : forall st, stable (reinterp st).
    Hypothesis good_nil : good [].
    Hypothesis good_add : forall st ids, good st -> good (add_allX st (l ids)).
    Hypothesis partial_needs_unloaded : forall st r,
      classify (reinterp st r) = RPartial -> exists u, In u (lits (reinterp st r)) /\ loadedX st u = false.
    Hypothesis lits_in_universe : forall st r,
      good st -> incl (lits r) Univ -> incl (lits (reinterp st r)) Univ.
    Hypothesis rs0_in_universe : forall er, In er rs0 -> incl (lits (snd er)) Univ.
    Hypothesis loader_answers : forall ids u, In u ids -> In u (map fst (l ids)).
    Hypothesis loader_in_universe : forall ids u, In u (map fst (l ids)) -> In u ids \/ In u Univ.

    Lemma mem_In : forall u xs, mem U U_eqb u xs = true <-> In u xs.
    Proof. exact (existsb_eqb_In U_eqb U_eqb_spec). Qed.

    Lemma unloaded_not_in : forall st u, loadedX st u = false -> ~ In u (map fst st).
    Proof. intros st u L Hin. apply mem_In in Hin. unfold loaded in L. rewrite Hin in L. discriminate. Qed.

    Lemma dedup_In : forall u xs, In u (dedup U U_eqb xs) <-> In u xs.
    Proof.
      intros u xs. induction xs as [|x tl IH]; simpl; [split; trivial|].
      destruct (mem U U_eqb x tl) eqn:M.
      - split; [intro H; right; apply IH; exact H|].
        intros [E|H]; apply IH; [subst; apply mem_In; exact M|exact H].
      - apply or_iff_compat_l. exact IH.
    Qed.

    Lemma add_all_keys : forall ans st u,
      In u (map fst (add_allX st ans)) <-> In u (map fst st) \/ In u (map fst ans).
    Proof.
      induction ans as [|[v e] tl IH]; intros st u; simpl.
      - split; [intro H; left; exact H|intros [H|[]]; exact H].
      - destruct (loadedX st v) eqn:L; (etransitivity; [apply IH|]); simpl.
        + split; [intros [H|H]; auto|]. intros [H|[E|H]]; auto. subst. left. apply mem_In. exact L.
        + split; [intros [[E|H]|H]; auto|intros [H|[E|H]]; auto].
    Qed.

    Lemma add_all_NoDup : forall ans st, NoDup (map fst st) -> NoDup (map fst (add_allX st ans)).
    Proof.
      induction ans as [|[v e] tl IH]; intros st N; simpl; [exact N|].
      destruct (loadedX st v) eqn:L; apply IH; [exact N|].
      simpl. constructor; [apply unloaded_not_in; exact L|exact N].
    Qed.

    Lemma to_load_In : forall st rs u,
      In u (to_loadX st rs) <-> (exists er, In er rs /\ In u (lits (snd er))) /\ loadedX st u = false.
    Proof.
      intros st rs u. unfold to_load. split.
      - intro H. apply dedup_In, filter_In in H. destruct H as [H L].
        split; [apply in_flat_map; exact H|apply negb_true_iff; exact L].
      - intros [H L]. apply dedup_In, filter_In.
        split; [apply in_flat_map; exact H|apply negb_true_iff; exact L].
    Qed.

    Lemma partial_in : forall rs, no_partialX rs = false -> exists er, In er rs /\ classify (snd er) = RPartial.
    Proof.
      intros rs H. apply forallb_false_ex in H as [er [Hin H]]. exists er. split; [exact Hin|].
      apply negb_false_iff in H. apply rclass_eqb_eq. exact H.
    Qed.

    Definition asks (st : pstore U D) (r : residual) : Prop :=
      incl (lits r) Univ /\ (classify r = RPartial -> exists u, In u (lits r) /\ loadedX st u = false).

    Definition inv (st : pstore U D) (rs : list (rpol residual)) : Prop :=
      NoDup (map fst st) /\ incl (map fst st) Univ /\ good st /\ forall er, In er rs -> asks st (snd er).

    Lemma asks_mapf : forall st prev, good st -> (forall er, In er prev -> incl (lits (snd er)) Univ) ->
      forall er, In er (mapf (reinterp st) prev) -> asks st (snd er).
    Proof.
      intros st prev G P er H. unfold mapf in H. apply in_map_iff in H. destruct H as [er0 [<- H0]].
      split; [apply lits_in_universe; [exact G|exact (P er0 H0)]|apply partial_needs_unloaded].
    Qed.

    Lemma inv_init : inv [] initX.
    Proof.
      split; [constructor|]. split; [intros u []|]. split; [exact good_nil|].
      apply asks_mapf; [exact good_nil|exact rs0_in_universe].
    Qed.

    Lemma step_inv : forall st rs, inv st rs -> inv (next_store l st rs) (next_rs l st rs).
    Proof.
      intros st rs [N [Sub [G A]]].
      split; [apply add_all_NoDup; exact N|]. split; [|split; [apply good_add; exact G|]].
      - intros u H. apply add_all_keys in H. destruct H as [H1|H1]; [apply Sub; exact H1|].
        destruct (loader_in_universe _ _ H1) as [H2|H2]; [|exact H2].
        apply to_load_In in H2. destruct H2 as [[er [Her Hu]] _]. exact (proj1 (A er Her) u Hu).
      - apply asks_mapf; [apply good_add; exact G|]. intros er Her. exact (proj1 (A er Her)).
    Qed.

    (* a residual Partial after the iteration was Partial before it (stable_partial), so it asked for a uid the
       store lacked, and the loader answered *)
    Lemma step_grows : forall st rs,
      inv st rs -> no_partialX (next_rs l st rs) = false -> (S (length st) <= length (next_store l st rs))%nat.
    Proof.
      intros st rs [N [_ [_ A]]] Hn.
      destruct (partial_in _ Hn) as [er' [Her' Hc]]. unfold next_rs, mapf in Her'. apply in_map_iff in Her'.
      destruct Her' as [er [<- Her]]. apply stable_partial in Hc; [|apply reinterp_stable].
      destruct (proj2 (A er Her) Hc) as [u [Hu Lu]].
      assert (T : In u (to_loadX st rs)) by (apply to_load_In; eauto).
      assert (Hle : (length (u :: map fst st) <= length (map fst (next_store l st rs)))%nat).
      { apply NoDup_incl_length.
        - constructor; [apply unloaded_not_in; exact Lu | exact N].
        - intros v Hv. apply add_all_keys. destruct Hv as [Ev|Hv].
          + subst v. right. apply loader_answers. exact T.
          + left. exact Hv. }
      simpl in Hle. rewrite !map_length in Hle. exact Hle.
    Qed.

    Lemma progress_loop : forall fuel st rs calls,
      inv st rs -> (length Univ < fuel + length st)%nat ->
      no_partialX (snd (fst (loopX l fuel st rs calls))) = true.
    Proof.
      induction fuel as [|f IH]; intros st rs calls Hinv Hlt.
      - exfalso. destruct Hinv as [N [Sub _]]. pose proof (NoDup_incl_length N Sub) as Hle.
        rewrite map_length in Hle. exact (Nat.lt_irrefl _ (Nat.lt_le_trans _ _ _ Hlt Hle)).
      - rewrite loop_S. destruct (no_partialX (next_rs l st rs)) eqn:Hn; [exact Hn|].
        apply IH; [apply step_inv; exact Hinv|]. apply (Nat.lt_le_trans _ _ _ Hlt). simpl.
        rewrite <- Nat.add_succ_r. apply Nat.add_le_mono_l, step_grows; assumption.
    Qed.

    Theorem progress : forall n, (length Univ < n)%nat -> exists d, batchedX l n = BOk d.
    Proof.
      intros n Hn. destruct (decide_no_partial (snd (fst (loopX l n [] initX [])))) as [d Hd].
      - apply progress_loop; [exact inv_init|rewrite Nat.add_0_r; exact Hn].
      - exists d. apply batched_ok. exact Hd.
    Qed.
  End Progress.

  Lemma loader_of_fst : forall es ids, map fst (loader_of U U_eqb D es ids) = ids.
  Proof. intros. unfold loader_of. rewrite map_map. simpl. apply map_id. Qed.

  Lemma loader_all_fst : forall es ids, map fst (loader_all U U_eqb D es ids) = (ids ++ map fst es)%list.
  Proof. intros. unfold loader_all. rewrite map_app, loader_of_fst, map_map. reflexivity. Qed.

  Section Agree.
    Variable l : loader U D.
    Variable conc : residual -> rclass.          (* concrete outcome of the residual over the full store *)
    Variable good : pstore U D -> Prop.          (* any invariant of the partial stores the loop builds *)
    Hypothesis good_nil : good [].
    Hypothesis good_add : forall st ids, good st -> good (add_allX st (l ids)).
    (* residual soundness, which is property C14 *)
    Hypothesis sound_class : forall r, classify r <> RPartial -> conc r = classify r.
    Hypothesis sound_reinterp : forall st r, good st -> conc (reinterp st r) = conc r.

    Definition chas (p : effect -> bool) (c : rclass) (rs : list (rpol residual)) : bool :=
      existsb (fun er => p (fst er) && rclass_eqb (conc (snd er)) c) rs.
    (* the authorizer's decision rule on the concrete outcomes, stated here; not linked to Authz.authorize_with *)
    Definition cdecide (rs : list (rpol residual)) : decision :=
      if chas eff_is_forbid RTrue rs then Deny else if chas eff_is_permit RTrue rs then Allow else Deny.

    Lemma chas_mapf : forall p c f rs, (forall r, conc (f r) = conc r) -> chas p c (mapf f rs) = chas p c rs.
    Proof.
      intros p c f rs Hk. unfold chas, mapf. induction rs as [|[e r] tl IH]; simpl; [reflexivity|].
      rewrite IH. rewrite Hk. reflexivity.
    Qed.

    Lemma cdecide_mapf : forall f rs, (forall r, conc (f r) = conc r) -> cdecide (mapf f rs) = cdecide rs.
    Proof. intros. unfold cdecide. rewrite !chas_mapf by assumption. reflexivity. Qed.

    (* chas is `has` at the classifier conc, and sound_class says that conc refines classify *)
    Lemma decide_sound : forall rs d, decideX rs = Some d -> d = cdecide rs.
    Proof.
      intros rs d H. exact (decide_decision conc rs d (decide_refines classify conc rs d sound_class H)).
    Qed.

    Lemma loop_cdecide : forall n st rs calls,
      good st -> cdecide (snd (fst (loopX l n st rs calls))) = cdecide rs.
    Proof.
      intros n st rs calls G.
      refine (proj2 (loop_invariant l (fun st1 rs1 => good st1 /\ cdecide rs1 = cdecide rs) _ n st rs calls
                       (conj G eq_refl))).
      intros st1 rs1 [G1 E]. split; [apply good_add; exact G1|]. rewrite <- E.
      apply cdecide_mapf. intro r. apply sound_reinterp. apply good_add. exact G1.
    Qed.

    Theorem agree : forall n d, batchedX l n = BOk d -> d = cdecide rs0.
    Proof.
      intros n d H. apply batched_ok, decide_sound in H. rewrite H, (loop_cdecide n _ _ _ good_nil).
      apply (cdecide_mapf (reinterp []) rs0). intro r. apply sound_reinterp. exact good_nil.
    Qed.
  End Agree.
End BatchedProofs.

(* `lookup` from here on is Batched.lookup (keys of any type with an equality test); the `lookup_*` lemmas of
   BaseFacts are about Base.lookup *)
Section ChainInstance.
  Variable es : list (Z * cdata).
  Variable Univ : list Z.
  Hypothesis es_next_in_universe : forall u fl v, lookup Z Z.eqb cdata es u = Some (fl, Some v) -> In v Univ.

  Definition c_good (st : list (Z * cdata)) : Prop :=
    forall u fl v, lookup Z Z.eqb cdata st u = Some (fl, Some v) -> In v Univ.

  Lemma c_stable : forall st, stable cres c_classify (c_reinterp st).
  Proof. intros st r H. destruct r; simpl in *; [reflexivity|congruence]. Qed.

  Lemma lookup_none_loaded : forall (st : list (Z * cdata)) u,
    lookup Z Z.eqb cdata st u = None -> loaded Z Z.eqb cdata st u = false.
  Proof.
    induction st as [|[v d] tl IH]; intros u H; simpl in *; [reflexivity|].
    unfold loaded, mem in *. simpl. destruct (Z.eqb u v); [discriminate|]. simpl. apply IH. exact H.
  Qed.

  Lemma c_follow_partial : forall k st u,
    c_classify (c_follow st u k) = RPartial ->
    exists v, In v (c_lits (c_follow st u k)) /\ loaded Z Z.eqb cdata st v = false.
  Proof.
    induction k as [|k IH]; intros st u; simpl;
      destruct (lookup Z Z.eqb cdata st u) as [[fl nx]|] eqn:L.
    (* u is not in the store: the chain stays where it is and asks for u *)
    2, 4: intros _; exists u; split; [left; reflexivity | apply lookup_none_loaded; exact L].
    - destruct fl as [[|]|]; simpl; discriminate.
    - destruct nx as [v|]; [apply IH|simpl; discriminate].
  Qed.

  Lemma c_partial_needs_unloaded : forall st r,
    c_classify (c_reinterp st r) = RPartial ->
    exists u, In u (c_lits (c_reinterp st r)) /\ loaded Z Z.eqb cdata st u = false.
  Proof. intros st [c|u k]; simpl; [destruct c; discriminate|apply c_follow_partial]. Qed.

  Lemma c_follow_lits : forall k st u, c_good st -> In u Univ -> incl (c_lits (c_follow st u k)) Univ.
  Proof.
    induction k as [|k IH]; intros st u G Hu; simpl;
      destruct (lookup Z Z.eqb cdata st u) as [[fl nx]|] eqn:L.
    2, 4: intros x [E|[]]; subst; exact Hu.
    - destruct fl as [[|]|]; simpl; intros x [].
    - destruct nx as [v|]; [apply IH; [exact G|exact (G u fl v L)]|simpl; intros x []].
  Qed.

  Lemma c_lits_in_universe : forall st r, c_good st -> incl (c_lits r) Univ -> incl (c_lits (c_reinterp st r)) Univ.
  Proof.
    intros st [c|u k] G H; simpl; [intros x []|]. apply c_follow_lits; [exact G|]. apply H. left. reflexivity.
  Qed.

  Lemma c_good_nil : c_good [].
  Proof. intros u fl v H. discriminate. Qed.

  Lemma add_all_lookup : forall ans (st : list (Z * cdata)) u d,
    lookup Z Z.eqb cdata (add_all Z Z.eqb cdata c_empty st ans) u = Some d ->
    lookup Z Z.eqb cdata st u = Some d \/
    exists e, In (u, e) ans /\ d = match e with Some x => x | None => c_empty u end.
  Proof.
    induction ans as [|[w e] tl IH]; intros st u d H; simpl in H; [left; exact H|].
    destruct (loaded Z Z.eqb cdata st w).
    - destruct (IH _ _ _ H) as [A|[e' [A B]]].
      + left. exact A.
      + right. exists e'. split; [right; exact A|exact B].
    - destruct (IH _ _ _ H) as [A|[e' [A B]]].
      + simpl in A. destruct (Z.eqb u w) eqn:Q; [|left; exact A].
        apply Z.eqb_eq in Q. subst w. inversion A; subst. right. exists e. split; [left; reflexivity|reflexivity].
      + right. exists e'. split; [right; exact A|exact B].
  Qed.

  Lemma c_good_add_of : forall st ids,
    c_good st -> c_good (add_all Z Z.eqb cdata c_empty st (loader_of Z Z.eqb cdata es ids)).
  Proof.
    intros st ids G u fl v H. destruct (add_all_lookup _ _ _ _ H) as [A|[e [A B]]]; [exact (G u fl v A)|].
    unfold loader_of in A. apply in_map_iff in A. destruct A as [x [E _]]. inversion E; subst.
    destruct (lookup Z Z.eqb cdata es u) as [x|] eqn:L; [|discriminate]. subst x.
    exact (es_next_in_universe u fl v L).
  Qed.

  Theorem chain_progress : forall rs0,
    (forall er, In er rs0 -> incl (c_lits (snd er)) Univ) ->
    forall n, (length Univ < n)%nat -> exists d, c_batched rs0 es n = BOk d.
  Proof.
    intros rs0 H0.
    apply (progress Z Z.eqb cdata c_empty cres c_classify c_lits c_reinterp rs0
                    (loader_of Z Z.eqb cdata es) Univ c_good).
    - intros a b. apply Z.eqb_eq.
    - apply c_stable.
    - apply c_good_nil.
    - apply c_good_add_of.
    - apply c_partial_needs_unloaded.
    - apply c_lits_in_universe.
    - exact H0.
    - intros ids u H. rewrite loader_of_fst. exact H.
    - intros ids u H. rewrite loader_of_fst in H. left. exact H.
  Qed.
End ChainInstance.
