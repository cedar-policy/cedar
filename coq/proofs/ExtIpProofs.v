(* C07: a range is the interval [ip_network, ip_broadcast] whose ends is_in_range compares, so
   isInRange is inclusion of ranges. *)
From Coq Require Import Lia.
From Cedar Require Import ExtParse.
Open Scope N_scope.

Definition ip_wf (a : ipaddr) : Prop :=
  ip_addr a < 2 ^ ip_width (ip_v6 a) /\ ip_prefix a <= ip_width (ip_v6 a).

Definition in_ip_range (a : ipaddr) (x : N) : Prop :=
  x < 2 ^ ip_width (ip_v6 a) /\
  x / 2 ^ (ip_width (ip_v6 a) - ip_prefix a) = ip_addr a / 2 ^ (ip_width (ip_v6 a) - ip_prefix a).

Lemma ones_bit k n : N.testbit (N.ones k) n = (n <? k).
Proof.
  destruct (N.ltb_spec n k); [apply N.ones_spec_low | apply N.ones_spec_high]; assumption.
Qed.

Lemma small_bit a w n : a < 2 ^ w -> w <= n -> N.testbit a n = false.
Proof.
  intros Ha Hn. apply N.testbit_false. rewrite N.div_small; [reflexivity|].
  eapply N.lt_le_trans; [exact Ha|]. apply N.pow_le_mono_r; lia.
Qed.

Lemma pow2_pos n : 0 < 2 ^ n.
Proof. apply N.neq_0_lt_0. apply N.pow_nonzero. lia. Qed.

Lemma ip_max_ones v6 : ip_max v6 = N.ones (ip_width v6).
Proof. unfold ip_max. rewrite N.ones_equiv, N.pred_sub. reflexivity. Qed.

Lemma width_pos v6 : 0 < ip_width v6.
Proof. destruct v6; reflexivity. Qed.

Lemma ldiff_ones_mul a n : N.ldiff a (N.ones n) = a / 2 ^ n * 2 ^ n.
Proof. rewrite N.ldiff_ones_r, N.shiftr_div_pow2, N.shiftl_mul_pow2. reflexivity. Qed.

(* clear the low n bits first: what is left shares no bit with the ones, so the or is a sum *)
Lemma lor_ones_add a n : N.lor a (N.ones n) = a / 2 ^ n * 2 ^ n + (2 ^ n - 1).
Proof.
  assert (E : N.lor a (N.ones n) = N.lor (N.ldiff a (N.ones n)) (N.ones n)).
  { apply N.bits_inj. intros i. rewrite !N.lor_spec, N.ldiff_spec.
    destruct (N.testbit a i), (N.testbit (N.ones n) i); reflexivity. }
  pose proof (N.land_ldiff a (N.ones n)) as D.
  rewrite E, <- (N.lxor_lor _ _ D), <- (N.add_nocarry_lxor _ _ D), ldiff_ones_mul, N.ones_equiv, N.pred_sub.
  reflexivity.
Qed.

Lemma hostmask_ones v6 p : p <= ip_width v6 -> hostmask v6 p = N.ones (ip_width v6 - p).
Proof.
  intros Hp. unfold hostmask. rewrite ip_max_ones. destruct (N.leb_spec (ip_width v6) p) as [L|L].
  - replace (ip_width v6 - p) with 0 by lia. reflexivity.
  - rewrite N.shiftr_div_pow2, N.ones_div_pow2 by lia. reflexivity.
Qed.

Lemma land_netmask v6 addr p :
  addr < 2 ^ ip_width v6 -> p <= ip_width v6 ->
  N.land addr (netmask v6 p) = N.ldiff addr (N.ones (ip_width v6 - p)).
Proof.
  intros Ha Hp. unfold netmask. rewrite ip_max_ones.
  set (w := ip_width v6) in *. set (sh := w - p).
  destruct (N.leb_spec w sh) as [L|L].
  - (* p = 0 *) rewrite N.land_0_r, ldiff_ones_mul, N.div_small; [reflexivity|].
    eapply N.lt_le_trans; [exact Ha|]. apply N.pow_le_mono_r; [discriminate|exact L].
  - apply N.bits_inj. intros n. rewrite !N.land_spec, N.ldiff_spec, !ones_bit.
    destruct (N.ltb_spec n sh) as [A|A].
    + rewrite N.shiftl_spec_low by assumption. cbn. rewrite andb_false_r. reflexivity.
    + rewrite N.shiftl_spec_high' by assumption. rewrite ones_bit.
      destruct (N.ltb_spec n w) as [B|B].
      * replace (n - sh <? w) with true by (symmetry; apply N.ltb_lt; lia). cbn. rewrite andb_true_r. reflexivity.
      * rewrite (small_bit addr w n Ha B). reflexivity.
Qed.

Lemma div_eq_iff x A q : 0 < A -> (x / A = q <-> q * A <= x < q * A + A).
Proof.
  intros HA. split.
  - intros <-. pose proof (N.mul_div_le x A ltac:(lia)). pose proof (N.mul_succ_div_gt x A ltac:(lia)). lia.
  - intros [L U]. symmetry. apply N.div_unique with (r := x - q * A); lia.
Qed.

Lemma range_block_fits w p addr :
  p <= w -> addr < 2 ^ w ->
  (addr / 2 ^ (w - p)) * 2 ^ (w - p) + 2 ^ (w - p) <= 2 ^ w.
Proof.
  intros Hp Ha. set (A := 2 ^ (w - p)).
  assert (PA : 2 ^ w = 2 ^ p * A) by (unfold A; rewrite <- N.pow_add_r; f_equal; lia).
  assert (HA : 0 < A) by apply pow2_pos.
  assert (Q : addr / A < 2 ^ p) by (apply N.div_lt_upper_bound; [lia|]; rewrite N.mul_comm, <- PA; exact Ha).
  rewrite PA. replace (addr / A * A + A) with ((addr / A + 1) * A) by lia.
  apply N.mul_le_mono_r. lia.
Qed.

(* self_network, self_broadcast of is_in_range *)
Definition ip_network (a : ipaddr) : N := N.land (ip_addr a) (netmask (ip_v6 a) (ip_prefix a)).
Definition ip_broadcast (a : ipaddr) : N := N.lor (ip_addr a) (hostmask (ip_v6 a) (ip_prefix a)).

Lemma ip_is_in_range_ends a b :
  ip_is_in_range a b =
  Bool.eqb (ip_v6 a) (ip_v6 b) &&
  ((ip_network b <=? ip_network a) && (ip_broadcast a <=? ip_broadcast b)).
Proof.
  unfold ip_is_in_range, ip_network, ip_broadcast.
  destruct (Bool.eqb (ip_v6 a) (ip_v6 b)) eqn:F; [|reflexivity].
  apply eqb_prop in F. rewrite F. reflexivity.
Qed.

Lemma ip_network_eq a : ip_wf a ->
  ip_network a = ip_addr a / 2 ^ (ip_width (ip_v6 a) - ip_prefix a) * 2 ^ (ip_width (ip_v6 a) - ip_prefix a).
Proof. intros [Wa Pa]. unfold ip_network. rewrite (land_netmask _ _ _ Wa Pa). apply ldiff_ones_mul. Qed.

Lemma ip_broadcast_network a : ip_wf a ->
  ip_broadcast a = ip_network a + (2 ^ (ip_width (ip_v6 a) - ip_prefix a) - 1).
Proof.
  intros W. rewrite (ip_network_eq a W). unfold ip_broadcast.
  rewrite (hostmask_ones _ _ (proj2 W)). apply lor_ones_add.
Qed.

Lemma ip_network_le_broadcast a : ip_wf a -> ip_network a <= ip_broadcast a.
Proof. intros W. rewrite (ip_broadcast_network a W). apply N.le_add_r. Qed.

Lemma block_interval x q A W :
  0 < A -> q * A + A <= W -> (x < W /\ x / A = q <-> q * A <= x <= q * A + (A - 1)).
Proof. intros HA F. rewrite (div_eq_iff x A q HA). lia. Qed.

Lemma in_ip_range_ends a x : ip_wf a -> (in_ip_range a x <-> ip_network a <= x <= ip_broadcast a).
Proof.
  intros W. rewrite (ip_broadcast_network a W), (ip_network_eq a W).
  apply block_interval; [apply pow2_pos | apply range_block_fits; apply W].
Qed.

Theorem ip_in_range_iff a b :
  ip_wf a -> ip_wf b ->
  (ip_is_in_range a b = true <->
   ip_v6 a = ip_v6 b /\ forall x, in_ip_range a x -> in_ip_range b x).
Proof.
  intros Wa Wb. rewrite ip_is_in_range_ends, !andb_true_iff, eqb_true_iff, !N.leb_le.
  pose proof (ip_network_le_broadcast a Wa) as Ha.
  split.
  - intros (F & L & U). split; [exact F|]. intros x Hx.
    apply (in_ip_range_ends a x Wa) in Hx. apply (in_ip_range_ends b x Wb). lia.
  - intros (F & H). split; [exact F|].
    assert (Lo : in_ip_range b (ip_network a)) by (apply H, in_ip_range_ends; [exact Wa|lia]).
    assert (Hi : in_ip_range b (ip_broadcast a)) by (apply H, in_ip_range_ends; [exact Wa|lia]).
    apply (in_ip_range_ends b _ Wb) in Lo, Hi. lia.
Qed.

Lemma interval_incl_width l l' A B :
  0 < A -> 0 < B -> l' <= l -> l + (A - 1) <= l' + (B - 1) -> A <= B.
Proof. lia. Qed.

Lemma in_ip_range_shorter_prefix a x p :
  ip_prefix a <= ip_width (ip_v6 a) -> p <= ip_prefix a -> in_ip_range a x ->
  x / 2 ^ (ip_width (ip_v6 a) - p) = ip_addr a / 2 ^ (ip_width (ip_v6 a) - p).
Proof.
  intros Pa Pp [_ E].
  replace (ip_width (ip_v6 a) - p) with (ip_width (ip_v6 a) - ip_prefix a + (ip_prefix a - p)) by lia.
  rewrite N.pow_add_r, <- !N.div_div, E by (apply N.pow_nonzero; discriminate). reflexivity.
Qed.

(* the prefix bound comes from the widths of the two intervals *)
Theorem ip_in_range_prefix a b :
  ip_wf a -> ip_wf b -> ip_v6 a = ip_v6 b ->
  ip_is_in_range a b =
  (ip_prefix b <=? ip_prefix a) &&
  (ip_addr a / 2 ^ (ip_width (ip_v6 a) - ip_prefix b) =? ip_addr b / 2 ^ (ip_width (ip_v6 a) - ip_prefix b)).
Proof.
  intros Wa Wb F. apply eq_true_iff_eq. rewrite andb_true_iff, N.leb_le, N.eqb_eq. split.
  - intros H. rewrite ip_is_in_range_ends, !andb_true_iff, !N.leb_le in H. destruct H as (_ & L & U).
    split.
    + rewrite (ip_broadcast_network a Wa), (ip_broadcast_network b Wb), <- F in U.
      pose proof (interval_incl_width _ _ _ _ (pow2_pos _) (pow2_pos _) L U) as AB.
      apply N.pow_le_mono_r_iff in AB; [|reflexivity].
      destruct Wa as [_ Pa], Wb as [_ Pb]. rewrite <- F in Pb. clear - AB Pa Pb. lia.
    + assert (Self : in_ip_range a (ip_addr a)) by (split; [apply Wa|reflexivity]).
      apply (in_ip_range_ends a _ Wa) in Self.
      assert (Hb : in_ip_range b (ip_addr a)) by (apply in_ip_range_ends; [exact Wb|lia]).
      rewrite F. exact (proj2 Hb).
  - intros [Pp E]. apply (ip_in_range_iff a b Wa Wb). split; [exact F|]. intros x Hx.
    unfold in_ip_range. rewrite <- F. split; [apply Hx|].
    rewrite (in_ip_range_shorter_prefix a x _ (proj2 Wa) Pp Hx). exact E.
Qed.

Definition loopback_block (v6 : bool) : ipaddr :=
  if v6 then mkIp true 1 128 (* ::1/128 *) else mkIp false 2130706432 8 (* 127.0.0.0/8 *).
Definition multicast_block (v6 : bool) : ipaddr :=
  if v6 then mkIp true 338953138925153547590470800371487866880 8 (* ff00::/8 *)
  else mkIp false 3758096384 4 (* 224.0.0.0/4 *).

Lemma loopback_block_wf v6 : ip_wf (loopback_block v6) /\ ip_v6 (loopback_block v6) = v6.
Proof. destruct v6; repeat split; discriminate. Qed.

Lemma multicast_block_wf v6 : ip_wf (multicast_block v6) /\ ip_v6 (multicast_block v6) = v6.
Proof. destruct v6; repeat split; discriminate. Qed.

Theorem ip_loopback_is_range a : ip_wf a ->
  ip_is_loopback a = ip_is_in_range a (loopback_block (ip_v6 a)).
Proof.
  intros W. destruct (loopback_block_wf (ip_v6 a)) as [Wb F].
  rewrite (ip_in_range_prefix a _ W Wb (eq_sym F)).
  unfold ip_is_loopback, loopback_block. destruct (ip_v6 a); cbn [ip_addr ip_prefix ip_width].
  - change (2 ^ (128 - 128)) with 1. rewrite !N.div_1_r. apply andb_comm.
  - change 2130706432 with (127 * 2 ^ (32 - 8)). rewrite N.div_mul, N.shiftr_div_pow2 by discriminate.
    apply andb_comm.
Qed.

(* 224..239 are the octets whose high four bits are 1110 *)
Lemma first_octet_multicast o : (224 <=? o) && (o <=? 239) = (o / 16 =? 14).
Proof.
  apply eq_true_iff_eq. rewrite andb_true_iff, !N.leb_le, N.eqb_eq, div_eq_iff by reflexivity. lia.
Qed.

Theorem ip_multicast_is_range a : ip_wf a ->
  ip_is_multicast a = ip_is_in_range a (multicast_block (ip_v6 a)).
Proof.
  intros W. destruct (multicast_block_wf (ip_v6 a)) as [Wb F].
  rewrite (ip_in_range_prefix a _ W Wb (eq_sym F)).
  unfold ip_is_multicast, multicast_block. destruct (ip_v6 a); cbn [ip_addr ip_prefix ip_width].
  - change 338953138925153547590470800371487866880 with (255 * 2 ^ (128 - 8)).
    rewrite N.div_mul, N.shiftr_div_pow2 by discriminate. apply andb_comm.
  - change 3758096384 with (14 * 2 ^ (32 - 4)). rewrite N.div_mul, N.shiftr_div_pow2, andb_comm by discriminate.
    f_equal.
    change (2 ^ (32 - 4)) with (2 ^ 24 * 16). rewrite <- N.div_div by discriminate.
    apply first_octet_multicast.
Qed.
