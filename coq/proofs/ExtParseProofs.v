From Coq Require Import Lia.
From Coq Require QArith.
From Cedar Require Import ExtParse BaseFacts.
Open Scope list_scope.
Open Scope Z_scope.

Lemma obind_some {A B} (o : option A) (k : A -> option B) x :
  obind o k = Some x -> exists a, o = Some a /\ k a = Some x.
Proof. destruct o as [a|]; [|discriminate]. intros H. exists a. auto. Qed.

Lemma expect_bind {A} c s (k : str -> option A) x :
  obind (expect c s) k = Some x -> exists r, s = c :: r /\ k r = Some x.
Proof.
  unfold expect. destruct s as [|y t]; [discriminate|]. destruct (N.eqb_spec y c) as [->|_]; [|discriminate].
  intros H. exists t. auto.
Qed.

(* The model tests for a sign, a dot or a 'Z' by matching on the character literal, which Coq
   compiles to a tree of matches on the bits of the number.  These equations put one
   comparison in its place. *)
Ltac by_bits c :=
  destruct c as [|p]; [reflexivity|]; do 7 (try (destruct p as [p|p|]; try reflexivity)).

Lemma match_minus {A} (c : N) (a b : A) :
  match c with 45%N => a | _ => b end = if (c =? 45)%N then a else b.
Proof. by_bits c. Qed.

Lemma match_sign {A} (c : N) (a b d : A) :
  match c with 45%N => a | 43%N => b | _ => d end =
  if (c =? 45)%N then a else if (c =? 43)%N then b else d.
Proof. by_bits c. Qed.

Lemma match_dot {A} (c : N) (a b : A) :
  match c with 46%N => a | _ => b end = if (c =? 46)%N then a else b.
Proof. by_bits c. Qed.

Lemma match_zulu {A} (c : N) (a b : A) :
  match c with 90%N => a | _ => b end = if (c =? 90)%N then a else b.
Proof. by_bits c. Qed.

Definition strip_minus (s : str) : str := match s with 45%N :: r => r | _ => s end.

Lemma minus_split s :
  s = (if starts_with_minus s then [45%N] else []) ++ strip_minus s.
Proof.
  destruct s as [|c t]; [reflexivity|]. unfold starts_with_minus, strip_minus.
  rewrite !match_minus. destruct (N.eqb_spec c 45) as [->|_]; reflexivity.
Qed.

Lemma minus_join (neg : bool) c t : c <> 45%N ->
  starts_with_minus ((if neg then [45%N] else []) ++ c :: t) = neg /\
  strip_minus ((if neg then [45%N] else []) ++ c :: t) = c :: t.
Proof.
  intros Hc. destruct neg; [split; reflexivity|]. unfold starts_with_minus, strip_minus. cbn [app].
  rewrite !match_minus. apply N.eqb_neq in Hc. rewrite Hc. split; reflexivity.
Qed.

Lemma minus_pair (s : str) :
  match s with 45%N :: r => (true, r) | _ => (false, s) end = (starts_with_minus s, strip_minus s).
Proof.
  destruct s as [|c t]; [reflexivity|]. unfold starts_with_minus, strip_minus.
  rewrite !match_minus. destruct (c =? 45)%N; reflexivity.
Qed.

Lemma span_spec p s a b :
  span p s = (a, b) ->
  s = a ++ b /\ forallb p a = true /\ match b with [] => True | c :: _ => p c = false end.
Proof.
  revert a b. induction s as [|c s IH]; intros a b H; cbn in H.
  - inversion H; subst. cbn. auto.
  - destruct (p c) eqn:Hc.
    + destruct (span p s) as [a' b'] eqn:Hs. inversion H; subst.
      destruct (IH a' b eq_refl) as (E & F & G). subst s. cbn. rewrite Hc. auto.
    + inversion H; subst. cbn. rewrite Hc. auto.
Qed.

Lemma span_exact p a b :
  forallb p a = true -> match b with [] => True | c :: _ => p c = false end ->
  span p (a ++ b) = (a, b).
Proof.
  induction a as [|c a IH]; intros Ha Hb; cbn in *.
  - destruct b as [|c b]; [reflexivity|]. cbn. rewrite Hb. reflexivity.
  - apply andb_true_iff in Ha. destruct Ha as [Hc Ha]. rewrite Hc, (IH Ha Hb). reflexivity.
Qed.

Lemma span_all p a : forallb p a = true -> span p a = (a, []).
Proof. intros H. rewrite <- (app_nil_r a) at 1. apply span_exact; auto. Qed.

Lemma all_ascii_digits_forallb s : all_ascii_digits s = forallb is_ascii_digit s.
Proof. induction s; cbn; congruence. Qed.

Lemma ascii_digit_code c : is_ascii_digit c = true <-> (48 <= c <= 57)%N.
Proof. unfold is_ascii_digit. rewrite andb_true_iff, !N.leb_le. tauto. Qed.

Lemma digit_val_range c : is_ascii_digit c = true -> 0 <= digit_val c <= 9.
Proof. rewrite ascii_digit_code. unfold digit_val. lia. Qed.

Lemma all_ascii_digits_cons c s :
  all_ascii_digits (c :: s) = true <-> is_ascii_digit c = true /\ all_ascii_digits s = true.
Proof. apply andb_true_iff. Qed.

(* what has been read is shifted left by the digits still to come, and they add less than
   one unit of that shift *)
Lemma fold_digits_bounds s : forall acc, all_ascii_digits s = true -> 0 <= acc ->
  acc * 10 ^ Z.of_nat (length s) <= fold_left (fun a c => a * 10 + digit_val c) s acc
  < (acc + 1) * 10 ^ Z.of_nat (length s).
Proof.
  induction s as [|c s IH]; intros acc H Hacc; [cbn; lia|].
  apply all_ascii_digits_cons in H. destruct H as [Hc Hs]. apply digit_val_range in Hc.
  specialize (IH (acc * 10 + digit_val c) Hs ltac:(lia)).
  cbn [fold_left length]. rewrite Nat2Z.inj_succ, Z.pow_succ_r by lia.
  pose proof (Z.pow_pos_nonneg 10 (Z.of_nat (length s)) ltac:(lia) ltac:(lia)). nia.
Qed.

Lemma digits_val_bounds s :
  all_ascii_digits s = true -> 0 <= digits_val s < 10 ^ Z.of_nat (length s).
Proof. intros H. pose proof (fold_digits_bounds s 0 H ltac:(lia)). unfold digits_val. lia. Qed.

Lemma byte_len_ascii_digits s : all_ascii_digits s = true -> byte_len s = Z.of_nat (length s).
Proof.
  induction s as [|c s IH]; intros H; [reflexivity|]. apply all_ascii_digits_cons in H. destruct H as [Hc Hs].
  cbn [byte_len length]. rewrite (IH Hs). apply ascii_digit_code in Hc.
  unfold utf8_len. replace (c <? 128)%N with true by (symmetry; apply N.ltb_lt; lia). lia.
Qed.

Lemma utf8_len_pos c : 1 <= utf8_len c.
Proof. unfold utf8_len. repeat match goal with |- context [if ?b then _ else _] => destruct b end; lia. Qed.

Lemma byte_len_ge_length s : Z.of_nat (length s) <= byte_len s.
Proof. induction s as [|c s IH]; cbn [byte_len length]; [lia|]. pose proof (utf8_len_pos c). lia. Qed.

(* `checked_i64 z` is what every checked_* operation of the code returns for the exact result z;
   `signed neg z` is a magnitude with the sign of the string it was read from *)
Definition checked_i64 (z : Z) : option Z := if in_i64 z then Some z else None.
Definition signed (neg : bool) (z : Z) : Z := if neg then - z else z.

Lemma checked_some z v : checked_i64 z = Some v <-> v = z /\ in_i64 v = true.
Proof.
  unfold checked_i64. split.
  - destruct (in_i64 z) eqn:I; [|discriminate]. intros H; inversion H; subst. auto.
  - intros [-> ->]. reflexivity.
Qed.

Lemma checked_in z : in_i64 z = true -> checked_i64 z = Some z.
Proof. intros H. apply checked_some. auto. Qed.

Lemma checked_bind {A} z (k : Z -> option A) x :
  obind (checked_i64 z) k = Some x <-> in_i64 z = true /\ k z = Some x.
Proof. unfold checked_i64. destruct (in_i64 z); cbn; intuition discriminate. Qed.

Lemma checked_mul_pow_eq x n : checked_mul_pow x n = checked_i64 (x * 10 ^ Z.of_nat n).
Proof. reflexivity. Qed.

(* with one sign throughout, a partial sum lies between zero and the total *)
Lemma signed_in_i64_mono neg a b :
  0 <= a <= b -> in_i64 (signed neg b) = true -> in_i64 (signed neg a) = true.
Proof.
  intros H I. apply in_i64_bounds in I. apply in_i64_bounds. unfold signed in *. destruct neg; lia.
Qed.

Lemma signed_magnitude neg a :
  0 <= a -> in_i64 (signed neg a) = true -> a <= 9223372036854775808.
Proof. intros Ha H. apply in_i64_bounds in H. unfold signed in H. destruct neg; lia. Qed.

Lemma signed_mul (neg : bool) z : (if neg then -1 else 1) * z = signed neg z.
Proof. unfold signed. destruct neg; lia. Qed.

Lemma parse_i64_signed (neg : bool) c r : c <> 45%N -> c <> 43%N ->
  parse_i64 ((if neg then [45%N] else []) ++ c :: r) =
  if all_ascii_digits (c :: r) then checked_i64 (signed neg (digits_val (c :: r))) else None.
Proof.
  intros N1 N2. destruct neg; [reflexivity|]. unfold parse_i64. cbn [app].
  rewrite match_sign. apply N.eqb_neq in N1, N2. rewrite N1, N2. reflexivity.
Qed.

Lemma parse_i64_unsigned c r : c <> 45%N -> c <> 43%N ->
  parse_i64 (c :: r) = if all_ascii_digits (c :: r) then checked_i64 (digits_val (c :: r)) else None.
Proof. exact (parse_i64_signed false c r). Qed.

Lemma ascii_digit_not_sign c : is_ascii_digit c = true -> c <> 45%N /\ c <> 43%N.
Proof. rewrite ascii_digit_code. lia. Qed.

Definition nd_ok (nd : N -> bool) : Prop :=
  forall c, (c <? 128)%N = true -> nd c = is_ascii_digit c.

(* the first range of the table is 0-9 and every other range begins above ASCII *)
Lemma ranges_above k c r (l : list (N * N)) :
  forallb (fun r => (k <=? fst r)%N) l = true -> (c < k)%N ->
  existsb (fun r => N.leb (fst r) c && N.leb c (snd r)) (r :: l) = N.leb (fst r) c && N.leb c (snd r).
Proof.
  intros H Hc. cbn [existsb]. rewrite <- (orb_false_r (_ && _)) at 2. f_equal.
  induction l as [|r' l IH]; [reflexivity|]. cbn in *.
  apply andb_true_iff in H. destruct H as [Hr Hl]. apply N.leb_le in Hr.
  rewrite (IH Hl). replace (fst r' <=? c)%N with false by (symmetry; apply N.leb_gt; lia). reflexivity.
Qed.

Lemma is_nd_ok : nd_ok is_nd.
Proof.
  intros c Hc. apply N.ltb_lt in Hc. exact (ranges_above 128 c (48, 57)%N (tl nd_table) eq_refl Hc).
Qed.

Definition dec_value (neg : bool) (ip fp : str) : Z :=
  (if neg then -1 else 1) *
  (digits_val ip * 10000 + digits_val fp * 10 ^ (4 - Z.of_nat (length fp))).

Definition dec_spec (s : str) (v : Z) : Prop :=
  exists (neg : bool) (ip fp : str),
    s = (if neg then [45%N] else []) ++ ip ++ 46%N :: fp /\
    ip <> [] /\ fp <> [] /\ all_ascii_digits ip = true /\ all_ascii_digits fp = true /\
    (length fp <= 4)%nat /\ v = dec_value neg ip fp /\ in_i64 v = true.

Lemma nd_ascii nd c : nd_ok nd -> is_ascii_digit c = true -> nd c = true.
Proof.
  intros Hnd H. rewrite Hnd; [exact H|]. apply ascii_digit_code in H. apply N.ltb_lt. lia.
Qed.

Lemma nd_not_sign nd c : nd_ok nd -> nd c = true -> c <> 45%N /\ c <> 43%N.
Proof. intros Hnd H. split; intros ->; rewrite Hnd in H by reflexivity; discriminate. Qed.

Lemma forallb_nd nd s : nd_ok nd -> all_ascii_digits s = true -> forallb nd s = true.
Proof.
  intros Hnd. induction s as [|c s IH]; [reflexivity|]. rewrite all_ascii_digits_cons. intros [A B].
  cbn. rewrite (nd_ascii nd c Hnd A), (IH B). reflexivity.
Qed.

Lemma decimal_regex_sound nd s l r :
  decimal_regex nd s = Some (l, r) ->
  exists (neg : bool) ip fp,
    s = (if neg then [45%N] else []) ++ ip ++ 46%N :: fp /\ l = (if neg then [45%N] else []) ++ ip /\ r = fp /\
    ip <> [] /\ fp <> [] /\ forallb nd ip = true /\ forallb nd fp = true.
Proof.
  unfold decimal_regex. rewrite minus_pair. generalize (minus_split s).
  generalize (starts_with_minus s) (strip_minus s). intros neg r0 ->. cbv beta iota.
  destruct (span nd r0) as [ds r1] eqn:S1. apply span_spec in S1. destruct S1 as (-> & F1 & _).
  destruct ds as [|d0 ds]; [discriminate|]. destruct r1 as [|c1 r2]; [discriminate|].
  rewrite match_dot. destruct (N.eqb_spec c1 46) as [->|_]; [|discriminate].
  destruct (span nd r2) as [fs r3] eqn:S2. apply span_spec in S2. destruct S2 as (-> & F2 & _).
  destruct fs as [|f0 fs]; [discriminate|]. destruct r3; [|discriminate].
  intros H. inversion H; subst l r. rewrite app_nil_r.
  exists neg, (d0 :: ds), (f0 :: fs).
  destruct neg; repeat split; (assumption || discriminate).
Qed.

Lemma decimal_regex_complete nd (neg : bool) ip fp :
  nd 45%N = false -> nd 46%N = false ->
  ip <> [] -> fp <> [] -> forallb nd ip = true -> forallb nd fp = true ->
  decimal_regex nd ((if neg then [45%N] else []) ++ ip ++ 46%N :: fp) =
  Some ((if neg then [45%N] else []) ++ ip, fp).
Proof.
  intros Hm Hd Nip Nfp Fip Ffp. destruct ip as [|i0 ip]; [congruence|]. destruct fp as [|f0 fp]; [congruence|].
  assert (Ni0 : i0 <> 45%N) by (intros ->; cbn in Fip; rewrite Hm in Fip; discriminate).
  unfold decimal_regex. rewrite minus_pair.
  change ((i0 :: ip) ++ 46%N :: f0 :: fp) with (i0 :: ip ++ 46%N :: f0 :: fp).
  destruct (minus_join neg i0 (ip ++ 46%N :: f0 :: fp) Ni0) as [-> ->].
  change (i0 :: ip ++ 46%N :: f0 :: fp) with ((i0 :: ip) ++ 46%N :: f0 :: fp).
  rewrite (span_exact nd (i0 :: ip) (46%N :: f0 :: fp) Fip Hd). cbv beta iota.
  rewrite (span_all nd _ Ffp). destruct neg; reflexivity.
Qed.

Lemma frac_scaled fp : all_ascii_digits fp = true -> (length fp <= 4)%nat ->
  0 <= digits_val fp <= digits_val fp * 10 ^ (4 - Z.of_nat (length fp)) /\
  digits_val fp * 10 ^ (4 - Z.of_nat (length fp)) < 10000.
Proof.
  intros D L. pose proof (digits_val_bounds fp D) as B.
  pose proof (Z.pow_pos_nonneg 10 (4 - Z.of_nat (length fp)) ltac:(lia) ltac:(lia)) as P.
  assert (E : 10 ^ Z.of_nat (length fp) * 10 ^ (4 - Z.of_nat (length fp)) = 10000).
  { rewrite <- Z.pow_add_r by lia.
    replace (Z.of_nat (length fp) + (4 - Z.of_nat (length fp))) with 4 by lia. reflexivity. }
  nia.
Qed.

Theorem decimal_parse_sound nd s v :
  nd_ok nd -> decimal_parse_with nd s = Some v -> dec_spec s v.
Proof.
  intros Hnd H. unfold decimal_parse_with in H.
  destruct (decimal_regex nd s) as [[l_str r_str]|] eqn:R; [|discriminate].
  destruct (decimal_regex_sound _ _ _ _ R) as (neg & ip & fp & -> & -> & -> & Nip & Nfp & Fip & Ffp).
  destruct ip as [|i0 ip]; [congruence|]. destruct fp as [|f0 fp]; [congruence|].
  cbn [forallb] in Fip, Ffp. apply andb_true_iff in Fip, Ffp.
  destruct (nd_not_sign nd i0 Hnd (proj1 Fip)) as [Ni1 Ni2]. destruct (nd_not_sign nd f0 Hnd (proj1 Ffp)) as [Nf1 Nf2].
  rewrite (parse_i64_signed neg i0 ip Ni1 Ni2), (parse_i64_unsigned f0 fp Nf1 Nf2) in H.
  rewrite (proj1 (minus_join neg i0 ip Ni1)) in H.
  destruct (all_ascii_digits (i0 :: ip)) eqn:Dip; [|discriminate].
  apply checked_bind in H. destruct H as [_ H].
  rewrite checked_mul_pow_eq in H. apply checked_bind in H. destruct H as [_ H].
  destruct (4 <? byte_len (f0 :: fp)) eqn:LEN; [discriminate|]. apply Z.ltb_ge in LEN.
  destruct (all_ascii_digits (f0 :: fp)) eqn:Dfp; [|discriminate].
  rewrite (byte_len_ascii_digits _ Dfp) in *.
  apply checked_bind in H. destruct H as [_ H].
  rewrite checked_mul_pow_eq in H. apply checked_bind in H. destruct H as [_ H].
  apply checked_some in H. destruct H as [-> Iv]. rewrite Z2Nat.id in * by lia.
  exists neg, (i0 :: ip), (f0 :: fp). repeat split; try assumption; try lia.
  unfold dec_value, signed. destruct neg; lia.
Qed.

(* if the total fits, every intermediate result fits, since all carry the one sign *)
Lemma decimal_chain neg I F P :
  0 <= I -> 0 <= F <= F * P -> F * P < 10000 ->
  in_i64 (signed neg (I * 10000 + F * P)) = true ->
  (let? l := checked_i64 (signed neg I) in
   let? l := checked_i64 (l * 10000) in
   let? r := checked_i64 F in
   let? r := checked_i64 (r * P) in
   checked_i64 (if neg then l - r else l + r)) = Some (signed neg (I * 10000 + F * P)).
Proof.
  intros HI HF HP Iv.
  rewrite (checked_in (signed neg I)) by (apply (signed_in_i64_mono neg I (I * 10000 + F * P)); [lia|exact Iv]).
  cbn [obind]. replace (signed neg I * 10000) with (signed neg (I * 10000)) by (unfold signed; destruct neg; lia).
  rewrite checked_in by (apply (signed_in_i64_mono neg (I * 10000) (I * 10000 + F * P)); [lia|exact Iv]).
  cbn [obind]. rewrite checked_in by (apply in_i64_bounds; lia). cbn [obind].
  rewrite checked_in by (apply in_i64_bounds; lia). cbn [obind].
  replace (if neg then signed neg (I * 10000) - F * P else signed neg (I * 10000) + F * P)
    with (signed neg (I * 10000 + F * P)) by (unfold signed; destruct neg; lia).
  apply checked_in. exact Iv.
Qed.

Theorem decimal_parse_complete nd s v :
  nd_ok nd -> dec_spec s v -> decimal_parse_with nd s = Some v.
Proof.
  intros Hnd (neg & ip & fp & -> & Hip & Hfp & Dip & Dfp & Lfp & -> & Iv).
  unfold decimal_parse_with.
  rewrite decimal_regex_complete by (auto using forallb_nd; rewrite Hnd; reflexivity).
  destruct ip as [|i0 ip]; [congruence|]. destruct fp as [|f0 fp]; [congruence|].
  destruct (ascii_digit_not_sign i0) as [Ni1 Ni2]; [apply all_ascii_digits_cons in Dip; tauto|].
  destruct (ascii_digit_not_sign f0) as [Nf1 Nf2]; [apply all_ascii_digits_cons in Dfp; tauto|].
  rewrite (parse_i64_signed neg i0 ip Ni1 Ni2), (parse_i64_unsigned f0 fp Nf1 Nf2).
  rewrite (proj1 (minus_join neg i0 ip Ni1)), Dip, Dfp, (byte_len_ascii_digits _ Dfp).
  replace (4 <? Z.of_nat (length (f0 :: fp))) with false by (symmetry; apply Z.ltb_ge; lia).
  unfold checked_mul_pow. rewrite Z2Nat.id by lia.
  unfold dec_value in *. rewrite signed_mul in *.
  destruct (frac_scaled _ Dfp Lfp) as [F1 F2].
  exact (decimal_chain neg _ _ _ (proj1 (digits_val_bounds _ Dip)) F1 F2 Iv).
Qed.

Theorem decimal_parse_nd_irrelevant nd1 nd2 s :
  nd_ok nd1 -> nd_ok nd2 -> decimal_parse_with nd1 s = decimal_parse_with nd2 s.
Proof.
  intros H1 H2.
  destruct (decimal_parse_with nd1 s) as [v|] eqn:E1.
  - symmetry. exact (decimal_parse_complete nd2 s v H2 (decimal_parse_sound nd1 s v H1 E1)).
  - destruct (decimal_parse_with nd2 s) as [w|] eqn:E2; [|reflexivity].
    rewrite (decimal_parse_complete nd1 s w H1 (decimal_parse_sound nd2 s w H2 E2)) in E1. discriminate.
Qed.

Lemma day_ms_pos : 0 < day_ms. Proof. reflexivity. Qed.

Lemma dt_offset_exact t d :
  dt_offset t d = if in_i64 (t + d) then Some (t + d) else None.
Proof. reflexivity. Qed.
Lemma dt_duration_since_exact a b :
  dt_duration_since a b = if in_i64 (a - b) then Some (a - b) else None.
Proof. reflexivity. Qed.

Lemma dt_to_date_exact t :
  in_i64 t = true ->
  let day_start := day_ms * (t / day_ms) in
  day_start <= t < day_start + day_ms /\
  dt_to_date t = if i64_min <=? day_start then Some day_start else None.
Proof.
  intros Ht. cbv zeta. pose proof (Z.div_mod t day_ms ltac:(unfold day_ms; lia)) as E.
  pose proof (Z.mod_pos_bound t day_ms day_ms_pos) as B.
  split; [lia|]. unfold dt_to_date.
  replace (t - t mod day_ms) with (day_ms * (t / day_ms)) by lia.
  apply in_i64_bounds in Ht. unfold in_i64.
  replace (day_ms * (t / day_ms) <=? i64_max) with true; [rewrite andb_true_r; reflexivity|].
  symmetry. apply Z.leb_le. unfold i64_max. lia.
Qed.

(* toTime, as coded with the truncating remainder, is the floor remainder: 0 <= . < one day *)
Lemma dt_to_time_exact t : dt_to_time t = t mod day_ms /\ 0 <= dt_to_time t < day_ms.
Proof.
  assert (E : dt_to_time t = t mod day_ms).
  { unfold dt_to_time. pose proof day_ms_pos as P.
    destruct (Z.ltb_spec t 0) as [N|N]; [|apply Z.rem_mod_nonneg; assumption].
    (* below zero the truncating remainder is minus the remainder of a = - t *)
    assert (Ha : 0 < - t) by lia. rewrite <- (Z.opp_involutive t). revert Ha. generalize (- t). intros a Ha.
    rewrite Z.rem_opp_l, Z.rem_mod_nonneg by lia.
    destruct (Z.eqb_spec (- (a mod day_ms)) 0) as [Z0|NZ].
    - rewrite Z.mod_opp_l_z by lia. exact Z0.
    - rewrite Z.mod_opp_l_nz by lia. lia. }
  split; [exact E|]. rewrite E. apply Z.mod_pos_bound. exact day_ms_pos.
Qed.

Lemma dur_to_exact ms :
  dur_to_seconds ms = Z.quot ms 1000 /\ dur_to_minutes ms = Z.quot ms 60000 /\
  dur_to_hours ms = Z.quot ms 3600000 /\ dur_to_days ms = Z.quot ms 86400000.
Proof.
  unfold dur_to_days, dur_to_hours, dur_to_minutes, dur_to_seconds.
  rewrite !Z.quot_quot by lia. repeat split; reflexivity.
Qed.

Lemma quot_magnitude a k : 0 <= a -> 0 < k -> 0 <= Z.quot a k <= a.
Proof.
  intros Ha Hk. split; [apply Z.quot_pos; lia|].
  rewrite <- (Z.quot_1_r a) at 2. apply Z.quot_le_compat_l; lia.
Qed.

Lemma quot_in_i64 ms k : 0 < k -> in_i64 ms = true -> in_i64 (Z.quot ms k) = true.
Proof.
  intros Hk H. apply in_i64_bounds in H. apply in_i64_bounds. destruct (Z_le_gt_dec 0 ms).
  - pose proof (quot_magnitude ms k ltac:(lia) Hk). lia.
  - pose proof (quot_magnitude (- ms) k ltac:(lia) Hk) as Q. rewrite Z.quot_opp_l in Q by lia. lia.
Qed.

Definition dec (z : Z) : value := VExt (EDecimal z).
Definition dtv (z : Z) : value := VExt (EDatetime z).
Definition durv (z : Z) : value := VExt (EDuration z).

Lemma call_named f args : call_xfn (xfn_name f) args = apply_xfn f args.
Proof. destruct f; reflexivity. Qed.

(* a decimal with representation z denotes the rational z / 10^4 *)
Definition dec_rat (z : Z) : QArith_base.Q := QArith_base.Qmake z 10000.

Lemma dec_rat_lt x y : QArith_base.Qlt (dec_rat x) (dec_rat y) <-> x < y.
Proof. unfold QArith_base.Qlt, dec_rat. cbn [QArith_base.Qnum QArith_base.Qden]. lia. Qed.

Lemma dec_rat_le x y : QArith_base.Qle (dec_rat x) (dec_rat y) <-> x <= y.
Proof. unfold QArith_base.Qle, dec_rat. cbn [QArith_base.Qnum QArith_base.Qden]. lia. Qed.

Lemma decimal_lt_rational x y : Z.ltb x y = true <-> (x * 1 < y * 1).
Proof. rewrite Z.ltb_lt. lia. Qed.

Definition next_date (y m d : Z) : Z * Z * Z :=
  if d <? days_in_month y m then (y, m, d + 1)
  else if m <? 12 then (y, m + 1, 1) else (y + 1, 1, 1).

Lemma days_in_month_range y m : 28 <= days_in_month y m <= 31.
Proof. unfold days_in_month. repeat match goal with |- context [if ?b then _ else _] => destruct b end; lia. Qed.
