(* C20, the sites that need no loop invariant.  In the byte-level slicing of the ip parser
   `i + c.len_utf8()` is always a char boundary within the string, so the byte-level code computes
   ExtParse.contains_at_least_two, the char-level model used by C07's ip parser. *)
From Coq Require Import Lia.
From Cedar Require Import ExtIpParseProofs NoPanicUtf8.

Lemma nth_error_lt {A} (l : list A) i : (i < List.length l)%nat -> exists x, nth_error l i = Some x.
Proof.
  intros H. destruct (nth_error l i) as [x|] eqn:E; [eauto|].
  apply nth_error_None in E. lia.
Qed.

Lemma idx_some {A} (l : list A) i site x : nth_error l i = Some x -> idx l i site = POk x.
Proof. intros E. unfold idx. rewrite E. reflexivity. Qed.

Lemma nth_error_store {A} (v : A) : forall l i k, (i < List.length l)%nat ->
  nth_error (firstn i l ++ v :: skipn (S i) l) k = if Nat.eqb k i then Some v else nth_error l k.
Proof.
  induction l as [|a l IH]; intros i k H; cbn [List.length] in H; [lia|].
  destruct i as [|i], k as [|k]; try reflexivity.
  apply (IH i k). lia.
Qed.

Lemma upd_ok {A} (l : list A) i v site : (i < List.length l)%nat ->
  upd l i v site = POk (firstn i l ++ v :: skipn (S i) l).
Proof. intros H. unfold upd. destruct (Nat.ltb_spec i (List.length l)); [reflexivity|lia]. Qed.

Lemma psub_ok a b site : (b <= a)%nat -> psub a b site = POk (a - b)%nat.
Proof. intros H. unfold psub. destruct (Nat.leb_spec b a); [reflexivity|lia]. Qed.

Lemma psub_succ_1 n site : psub (S n) 1 site = POk n.
Proof. unfold psub. cbn [Nat.leb Nat.sub]. rewrite Nat.sub_0_r. reflexivity. Qed.

(* `for k in a..a+n` with an invariant indexed by the loop counter *)
Lemma pfold_seq_inv {St} (P : nat -> St -> Prop) (f : St -> nat -> pres St) : forall n a,
  (forall k s, (a <= k < a + n)%nat -> P k s -> exists s', f s k = POk s' /\ P (S k) s') ->
  forall s, P a s -> exists s', pfold f (seq a n) s = POk s' /\ P (a + n)%nat s'.
Proof.
  induction n as [|n IH]; intros a Hstep s H0; cbn [seq pfold].
  - exists s. rewrite Nat.add_0_r. split; [reflexivity|exact H0].
  - destruct (Hstep a s) as [s1 [E1 P1]]; [lia|exact H0|]. rewrite E1. cbn [pbind].
    rewrite <- Nat.add_succ_comm. apply IH; [|exact P1].
    intros k s0 Hk. apply Hstep. lia.
Qed.

(* `for k in 1..n+1`: the form of every loop of levenshtein_distance *)
Lemma pfold_range1_inv {St} (P : nat -> St -> Prop) (f : St -> nat -> pres St) n :
  (forall k s, (k < n)%nat -> P (S k) s -> exists s', f s (S k) = POk s' /\ P (S (S k)) s') ->
  forall s, P 1%nat s -> exists s', pfold f (range1 (S n)) s = POk s' /\ P (S n) s'.
Proof.
  intros Hstep. unfold range1. rewrite Nat.sub_succ, Nat.sub_0_r.
  apply (pfold_seq_inv P f n 1). intros [|k] s0 Hk; [lia|]. apply Hstep. lia.
Qed.

Lemma netmask_checked_ok v6 p : (p <= ip_width v6)%N -> netmask_checked v6 p = POk (netmask v6 p).
Proof.
  intros H. unfold netmask_checked, netmask. rewrite psub_ok by lia. cbn [pbind].
  replace (N.of_nat (N.to_nat (ip_width v6) - N.to_nat p)) with (ip_width v6 - p)%N by lia. reflexivity.
Qed.

Lemma netmask_checked_panics v6 p : (ip_width v6 < p)%N -> no_panic (netmask_checked v6 p) = false.
Proof.
  intros H. unfold netmask_checked, psub.
  destruct (Nat.leb_spec (N.to_nat p) (N.to_nat (ip_width v6))); [lia|reflexivity].
Qed.

Theorem ip_in_range_checked_ok a b :
  (ip_prefix a <= ip_width (ip_v6 a))%N -> (ip_prefix b <= ip_width (ip_v6 b))%N ->
  ip_is_in_range_checked a b = POk (ip_is_in_range a b).
Proof.
  intros Ha Hb. unfold ip_is_in_range_checked, ip_is_in_range.
  destruct (Bool.eqb (ip_v6 a) (ip_v6 b)) eqn:E; [|reflexivity].
  apply Bool.eqb_prop in E. rewrite <- E in Hb.
  rewrite (netmask_checked_ok _ _ Ha). cbn [pbind]. rewrite (netmask_checked_ok _ _ Hb). reflexivity.
Qed.

Theorem ip_parse_prefix_bound : forall s a, ip_parse s = Some a -> (ip_prefix a <= ip_width (ip_v6 a))%N.
Proof.
  intros s a H. destruct (ip_parse_some s a H) as (A & _ & [[_ ->] | (P & _ & HP)]).
  - destruct (ip_v6 a); apply N.le_refl.
  - destruct (ip_v6 a); eapply dec_field_le.
    + exact (parse_prefix_sound P 128 3 _ HP).
    + exact (parse_prefix_sound P 32 2 _ HP).
Qed.

Theorem ip_in_range_strs_no_panic : forall s1 s2,
  ip_in_range_strs s1 s2 =
  POk (match ip_parse s1, ip_parse s2 with Some a, Some b => Some (ip_is_in_range a b) | _, _ => None end).
Proof.
  intros s1 s2. unfold ip_in_range_strs.
  destruct (ip_parse s1) as [a|] eqn:E1; [|reflexivity].
  destruct (ip_parse s2) as [b|] eqn:E2; [|reflexivity].
  rewrite ip_in_range_checked_ok by (eapply ip_parse_prefix_bound; eauto). reflexivity.
Qed.

Lemma len_utf8_pos c : (1 <= len_utf8 c)%nat.
Proof. unfold len_utf8. destruct (c <? 128)%N, (c <? 2048)%N, (c <? 65536)%N; lia. Qed.

Lemma get_from_0 s : get_from s 0 = Some s.
Proof. destruct s; reflexivity. Qed.

(* stepping over a whole char lands on a boundary of the rest *)
Lemma get_from_cons x r k : get_from (x :: r) (len_utf8 x + k) = get_from r k.
Proof.
  pose proof (len_utf8_pos x) as Hp.
  destruct (len_utf8 x + k)%nat as [|n] eqn:E; [lia|]. cbn [get_from]. rewrite <- E.
  destruct (Nat.ltb_spec (len_utf8 x + k) (len_utf8 x)); [lia|]. f_equal. lia.
Qed.

(* the byte search finds c exactly when the char search does, and the byte index found, advanced by c's own
   length, is the boundary right after that occurrence *)
Lemma find_byte_char c : forall s,
  match find_byte_idx c s, find_char c s with
  | Some i, Some rest => get_from s (i + len_utf8 c) = Some rest
  | None, None => True
  | _, _ => False
  end.
Proof.
  induction s as [|x r IH]; cbn [find_byte_idx find_char]; [exact I|].
  destruct (N.eqb_spec x c) as [->|_].
  - cbn [Nat.add]. rewrite <- (Nat.add_0_r (len_utf8 c)), get_from_cons. apply get_from_0.
  - destruct (find_byte_idx c r) as [i|], (find_char c r) as [rest|]; try exact IH.
    rewrite <- Nat.add_assoc, get_from_cons. exact IH.
Qed.

Theorem contains_at_least_two_checked_ok : forall s c,
  contains_at_least_two_checked s c = POk (contains_at_least_two s c).
Proof.
  intros s c. unfold contains_at_least_two_checked, contains_at_least_two.
  pose proof (find_byte_char c s) as H.
  destruct (find_byte_idx c s) as [i|], (find_char c s) as [rest|]; try contradiction; [|reflexivity].
  rewrite H. pose proof (find_byte_char c rest) as H2.
  destruct (find_byte_idx c rest), (find_char c rest); try contradiction; reflexivity.
Qed.

Theorem ip_parse_checked_ok : forall s, ip_parse_checked s = POk (ip_parse s).
Proof.
  intros s. unfold ip_parse_checked. destruct (43 <? byte_len s)%Z eqn:E.
  - unfold ip_parse. rewrite E. reflexivity.
  - rewrite !contains_at_least_two_checked_ok. reflexivity.
Qed.

Theorem extn_layout_no_panic {A} : forall (ms : bool) (args : list A), exists l, extn_multi_layout ms args = POk l.
Proof. intros ms args. unfold extn_multi_layout. destruct ms, args; eauto. Qed.

Theorem extn_layout_agrees_with_old {A} : forall (ms : bool) (args : list A) l,
  extn_multi_layout_old ms args = POk l -> extn_multi_layout ms args = POk l.
Proof.
  intros ms args l. unfold extn_multi_layout_old, extn_multi_layout.
  destruct ms; [|destruct args; auto].
  destruct args as [|r rest]; cbn; [discriminate|auto].
Qed.

Theorem extn_layout_old_panics_iff {A} : forall (ms : bool) (args : list A),
  no_panic (extn_multi_layout_old ms args) = false <-> ms = true /\ args = [].
Proof.
  intros ms args. unfold extn_multi_layout_old. destruct ms; [|cbn; split; [discriminate|intros [H _]; discriminate]].
  destruct args as [|r rest]; cbn; split; auto; try discriminate. intros [_ H]. discriminate.
Qed.
