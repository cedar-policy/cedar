(* C13 — partial evaluation with unknowns is sound.

   Model: coq/model/PE.v (peval, PartialResponse views, reauthorize), transcribed from
   evaluator.rs / authorizer/partial_response.rs and run against the implementation by ./check C13.

   The vocabulary of the statements (defined in model/PE.v and in proofs/PESound.v, PEProofs.v, PEReauth.v):
   * sg is the substitution sigma; (q, es) is a sg-COMPLETION of the partial request / store
     (pq, pes): stated relationally — every request variable's partial value is sound
     (`forall sl v, sound_pres sg sl q es (peval_var pq v) (Var v)`) and every stored entity has
     the same tags / ancestors and attribute-wise completed attributes (`store_complete`).
   * wt_expr sg e: every unknown of e is mapped by sg to a value of its declared type
     (the WELL-TYPED substitutions of the property text).
   * agree a b: equal values, or BOTH errors — the error class may differ.
   * Outside the model, visible in the statements: POut / SOut (an extension VALUE had to be
     converted back into an expression) and partial entity stores (Entities::partial) — covered by
     the implementation-level oracle of ./check C13 only. *)
From Coq Require Import String.
From Cedar Require Import PE PEProofs PESound PEReauth.
Open Scope string_scope.

(* c13_peval_sound: for EVERY expression of the language (structural induction, one lemma
   per peval arm in proofs/PESound.v)
     peval e = PV v   ->  eval (sg e) = Ok v
     peval e = PR r   ->  agree (eval (sg r)) (eval (sg e))  /\  r is again well-typed for sg
     peval e = PErr _ ->  eval (sg e) is an error
   also for an evaluator that already carries a mapper mu ⊆ sg (as reauthorize does). *)
Theorem c13_peval_sound :
  forall (sg mu : mapper) (sl : slotenv) (pq : prequest) (pes : pentities) (q : request) (es : entities),
    (forall (n : str) (v : value), mu n = Some v -> sg n = Some v) ->
    (forall v : var, sound_pres sg sl q es (peval_var pq v) (Var v)) ->
    store_complete sg sl pes q es ->
    forall e : expr,
      wt_expr sg e = true ->
      sound_pres sg sl q es (peval mu sl pq pes e) e.
Proof. exact peval_sound. Qed.
Print Assumptions c13_peval_sound.
Print sound_pres.
Print sound_res.
Print agree.
Print store_complete.
Print attr_complete.

(* the status recorded for a policy is sound for the concrete outcome of (sg policy) *)
Theorem c13_policy_status_sound :
  forall (sg mu : mapper) pq pes q es p,
    (forall n v, mu n = Some v -> sg n = Some v) ->
    (forall sl v, sound_pres sg sl q es (peval_var pq v) (Var v)) ->
    (forall sl, store_complete sg sl pes q es) ->
    wt_expr sg (pcondition p) = true ->
    peval_policy mu (penv p) pq pes p <> SOut ->
    status_sound (peval_policy mu (penv p) pq pes p) (eval_policy_subst sg q es p).
Proof. exact policy_status_sound. Qed.
Print Assumptions c13_policy_status_sound.
Print status_sound.
Print eval_policy_subst.

(* the PartialResponse views, for the partial response of ANY policy list *)
Print completion.

(* a definite partial decision is the decision for every completion *)
Theorem c13_decision :
  forall sg pq pes q es ps d,
    completion sg pq pes q es ps ->
    pdecision (pitems (is_authorized_partial ps pq pes)) = Some d ->
    rdecision (authorize_with (eval_policy_subst sg q es) ps) = d.
Proof. intros sg pq pes q es ps d C. apply pdecision_sound, (completion_weak _ _ _ _ _ _ C). Qed.
Print Assumptions c13_decision.

(* must_be_determining ⊆ actual determining policies ⊆ may_be_determining *)
Theorem c13_determining :
  forall sg pq pes q es ps i,
    completion sg pq pes q es ps ->
    (In i (must_be_determining (pitems (is_authorized_partial ps pq pes))) ->
     In i (rreasons (authorize_with (eval_policy_subst sg q es) ps))) /\
    (In i (rreasons (authorize_with (eval_policy_subst sg q es) ps)) ->
     In i (may_be_determining (pitems (is_authorized_partial ps pq pes)))).
Proof.
  intros sg pq pes q es ps i C. split; [apply must_sound | apply may_sound]; exact (completion_weak _ _ _ _ _ _ C).
Qed.
Print Assumptions c13_determining.

(* definitely satisfied / errored / trivially false policies behave so under the substitution *)
Theorem c13_definitely :
  forall sg pq pes q es ps i,
    completion sg pq pes q es ps ->
    (In i (definitely_satisfied (pitems (is_authorized_partial ps pq pes))) ->
     exists p, In p ps /\ pid p = i /\ eval_policy_subst sg q es p = Ok true) /\
    (In i (definitely_errored (pitems (is_authorized_partial ps pq pes))) ->
     exists p e, In p ps /\ pid p = i /\ eval_policy_subst sg q es p = Err e) /\
    (In i (trivially_false (pitems (is_authorized_partial ps pq pes))) ->
     exists p, In p ps /\ pid p = i /\ eval_policy_subst sg q es p = Ok false).
Proof.
  intros sg pq pes q es ps i C. repeat split; [apply satisfied_sound | apply errored_sound | apply false_sound];
    exact (completion_sound _ _ _ _ _ _ C).
Qed.
Print Assumptions c13_definitely.

(* reauthorize, policy by policy.
   reauth_status sg q es st  is the status PartialResponse::reauthorize records for a policy whose
   first-phase status was st: the policy  true && (true && (true && residual))  (resp. true / false)
   evaluated by peval with the mapper sg on the completed request and store.  It never is a residual,
   and the policy is satisfied under reauthorize iff it is satisfied from scratch — the decision and
   the determining policies are functions of exactly these satisfied sets.
   _partial: (a) stated per policy, about reauth_status, a definition of proofs/PEReauth.v — that the
   items of PE.reauthorize are the first-phase items with reauth_status applied to their status, and the
   decision / reason of pconcretize over them, is not proved in Coq, it is compared on every run by
   ./check C13; (b) the completed request is taken as given:
   concretize_request sg pq = embed_request q is not proved (Context::substitute re-evaluation);
   (c) static policies (no slots). *)
Theorem c13_reauthorize_partial :
  forall sg q es pq pes p,
    (forall sl v, sound_pres sg sl q es (peval_var pq v) (Var v)) ->
    (forall sl, store_complete sg sl pes q es) ->
    penv p = [] ->
    wt_expr sg (pcondition p) = true ->
    peval_policy no_mapping [] pq pes p <> SOut ->
    match reauth_status sg q es (peval_policy no_mapping [] pq pes p) with
    | SSat => eval_policy_subst sg q es p = Ok true
    | SFalse | SErr _ => eval_policy_subst sg q es p <> Ok true
    | SRes _ | SOut => False
    end.
Proof.
  intros sg q es pq pes p Hv Hs Henv W N. unfold eval_policy_subst. rewrite Henv.
  apply (reauth_sound sg q es (peval no_mapping [] pq pes (pcondition p))); [|exact N].
  apply peval_sound; auto. intros n v E; discriminate E.
Qed.
Print Assumptions c13_reauthorize_partial.
Print reauth_status.

(* in concrete mode (concrete request and store, every unknown mapped) peval leaves no residual *)
Theorem c13_reauthorize_no_residual :
  forall mu sl q es e, wt_expr mu e = true ->
    is_concrete (peval mu sl (embed_request q) (embed_entities es) e).
Proof. exact peval_concrete. Qed.
Print Assumptions c13_reauthorize_no_residual.

(* non-vacuity: a concrete partial request with an unknown principal *)
Definition ex_user : etype := [s2str "User"].
Definition ex_alice : uid := mkUid ex_user (s2str "alice").
Definition ex_bob : uid := mkUid ex_user (s2str "bob").
Definition ex_act : uid := mkUid [s2str "Action"] (s2str "view").
Definition ex_pq : prequest :=
  mkPRequest (EUnknown (Some ex_user)) (EKnown ex_act) (EKnown ex_bob)
             (CResidual [(s2str "flag", Unknown (s2str "f") None)]).
Definition ex_tpl (id : String.string) (eff : effect) (body : expr) : policy :=
  mkPolicy (mkTemplate (s2str id) [] eff CAny AAny CAny (Some body)) None [].
(* permit when principal == alice ; forbid when context.flag ; permit (always) ; permit when 1 + "a" *)
Definition ex_ps : list policy :=
  [ ex_tpl "p0" Permit (BinApp BEq (Var Principal) (Lit (PEntity ex_alice)));
    ex_tpl "p1" Forbid (GetAttr (Var Context) (s2str "flag"));
    ex_tpl "p2" Permit (Lit (PBool true));
    ex_tpl "p3" Permit (BinApp BAdd (Lit (PLong 1)) (Lit (PString (s2str "a")))) ].
Definition ex_resp := is_authorized_partial ex_ps ex_pq [].
Definition ex_sigma (flag : bool) : mapper :=
  fun n => if str_eqb n (s2str "principal") then Some (VEntity ex_alice)
           else if str_eqb n (s2str "f") then Some (VBool flag) else None.
Definition ex_q (flag : bool) : request := mkRequest ex_alice ex_act ex_bob [(s2str "flag", VBool flag)].

(* the residual forbid makes the partial decision indefinite; must = [], may = p0 p1 p2 *)
Example c13_ex_views :
  pdecision (pitems ex_resp) = None /\
  must_be_determining (pitems ex_resp) = [] /\
  may_be_determining (pitems ex_resp) = [s2str "p0"; s2str "p1"; s2str "p2"] /\
  definitely_satisfied (pitems ex_resp) = [s2str "p2"] /\
  definitely_errored (pitems ex_resp) = [s2str "p3"].
Proof. vm_compute. repeat split. Qed.

(* the hypothesis `completion` of the theorems holds for the example under both completions of the flag *)
Example c13_ex_completion :
  forall flag, completion (ex_sigma flag) ex_pq [] (ex_q flag) [] ex_ps.
Proof.
  intros flag. split; [|split].
  - intros sl v. destruct flag, v; vm_compute; auto.
  - intros sl u. reflexivity.
  - intros p [E|[E|[E|[E|[]]]]]; subst p; (split; [destruct flag; reflexivity | vm_compute; congruence]).
Qed.

Example c13_ex_status_sound :
  forall flag, Forall (fun p => status_sound (peval_policy no_mapping (penv p) ex_pq [] p)
                                             (eval_policy_subst (ex_sigma flag) (ex_q flag) [] p)) ex_ps.
Proof. intros flag. apply Forall_forall. exact (completion_sound _ _ _ _ _ _ (c13_ex_completion flag)). Qed.

(* reauthorize agrees with concrete authorization from scratch *)
Example c13_ex_reauthorize :
  forall flag,
    option_map (fun r => (rdecision (pconcretize (pitems r)), rreasons (pconcretize (pitems r))))
               (reauthorize (ex_sigma flag) [] ex_resp)
    = Some (rdecision (is_authorized ex_ps (ex_q flag) []), rreasons (is_authorized ex_ps (ex_q flag) [])).
Proof. intros [|]; vm_compute; reflexivity. Qed.

(* without the forbid the decision is definite *)
Example c13_ex_definite :
  pdecision (pitems (is_authorized_partial [nth 0 ex_ps (ex_tpl "x" Permit T); nth 2 ex_ps (ex_tpl "x" Permit T)] ex_pq []))
  = Some Allow.
Proof. vm_compute. reflexivity. Qed.
