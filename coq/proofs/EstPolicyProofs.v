From Coq Require Import String.
From Cedar Require Import EstPolicy BaseFacts EstOrderProofs EstProofs.
Open Scope Z_scope.

Definition name_ok (n : name) : Prop := parse_name (print_name n) = Some n.
Definition uid_ok (u : uid) : Prop := name_ok (uty u).
Definition eref_ok (r : eref) : Prop := match r with RefUid u => uid_ok u | RefSlot => True end.
Definition pr_ok (c : prconstraint) : Prop :=
  match c with
  | CAny => True
  | CEq r | CIn r => eref_ok r
  | CIs t => name_ok t
  | CIsIn t r => name_ok t /\ eref_ok r
  end.
Definition act_ok (u : uid) : Prop := uid_ok u /\ is_action_uid u = true.
Fixpoint acts_ok (us : list uid) : Prop := match us with [] => True | u :: us' => act_ok u /\ acts_ok us' end.
Definition ac_ok (c : aconstraint) : Prop :=
  match c with AAny => True | AEq u => act_ok u | AIn us => acts_ok us end.
Fixpoint ann_keys_ok (a : annotations) : Prop :=
  match a with [] => True | kv :: a' => anyid_ok (fst kv) = true /\ ann_keys_ok a' end.
Definition body_ok (b : option expr) : Prop :=
  match b with None => True | Some e => Rep e /\ has_slot e = false end.

(* The JSON-representable templates: Rep bodies without slots; names that read back; action
   constraints over Action-typed entities; annotations in BTreeMap order with identifier keys. *)
Definition TemplateRep (t : template) : Prop :=
  pr_ok (tprincipal t) /\ ac_ok (taction t) /\ pr_ok (tresource t) /\
  sort_assoc (tannot t) = tannot t /\ ann_keys_ok (tannot t) /\ body_ok (tbody t).

Lemma est_conditions_nocheck j r : est_to_ast_conditions j = Ok r -> conditions_to_ast j = Ok r.
Proof. unfold est_to_ast_conditions. destruct (json_nodup j); [exact id|discriminate]. Qed.

Lemma conditions_roundtrip body : body_ok body -> conditions_to_ast (ast_to_est_conditions body) = Ok body.
Proof.
  destruct body as [e|]; [|reflexivity]. intros (HR & Hs).
  apply est_conditions_nocheck, est_conditions_roundtrip; assumption.
Qed.

Lemma body_nodup b : body_ok b -> json_nodup (ast_to_est_conditions b) = true.
Proof. destruct b as [e|]; [|reflexivity]. intros (HR & _). exact (nodup_conditions _ HR). Qed.

Lemma dec_uid t i :
  uidjson_to_uid (JObj [(K "type", JStr t); (K "id", JStr i)]) =
  match parse_name t with Some n => Ok (mkUid n i) | None => bad end.
Proof. reflexivity. Qed.

Lemma dec_uid_explicit u : uidjson_to_uid (JObj [(K "__entity", uid_json u)]) = uidjson_to_uid (uid_json u).
Proof. reflexivity. Qed.

Lemma dec_eref_entity s j : eref_of s [(K "entity", j)] = (do u <- uidjson_to_uid j; Ok (RefUid u)).
Proof. reflexivity. Qed.

Lemma dec_pr_eq s fs : est_to_pr s (JObj ((K "op", JStr (K "==")) :: fs)) = (do r <- eref_of s fs; Ok (CEq r)).
Proof. reflexivity. Qed.

Lemma dec_pr_in s fs : est_to_pr s (JObj ((K "op", JStr (K "in")) :: fs)) = (do r <- eref_of s fs; Ok (CIn r)).
Proof. reflexivity. Qed.

Lemma dec_pr_is s t :
  est_to_pr s (JObj [(K "op", JStr (K "is")); (K "entity_type", JStr t)]) =
  match parse_name t with Some ty => Ok (CIs ty) | None => bad end.
Proof. reflexivity. Qed.

Lemma dec_pr_is_in s t r :
  est_to_pr s (JObj [(K "op", JStr (K "is")); (K "entity_type", JStr t); (K "in", JObj r)]) =
  match parse_name t with Some ty => do x <- eref_of s r; Ok (CIsIn ty x) | None => bad end.
Proof. reflexivity. Qed.

Lemma dec_ac_eq j :
  est_to_ac (JObj [(K "op", JStr (K "==")); (K "entity", j)]) =
  (do u <- uidjson_to_uid j; if is_action_uid u then Ok (AEq u) else bad).
Proof. reflexivity. Qed.

Lemma dec_ac_in_one j :
  est_to_ac (JObj [(K "op", JStr (K "in")); (K "entity", j)]) =
  (do u <- uidjson_to_uid j; if is_action_uid u then Ok (AIn [u]) else bad).
Proof. reflexivity. Qed.

Lemma dec_ac_in l :
  est_to_ac (JObj [(K "op", JStr (K "in")); (K "entities", JArr l)]) =
  (do us <- mapM uidjson_to_uid l; if forallb is_action_uid us then Ok (AIn us) else bad).
Proof. reflexivity. Qed.

Lemma uidjson_roundtrip u : uid_ok u -> uidjson_to_uid (uid_json u) = Ok u.
Proof. intros H. unfold uid_json. rewrite dec_uid, H. destruct u; reflexivity. Qed.

Lemma eref_roundtrip s r : eref_ok r -> eref_of s (eref_fields s r) = Ok r.
Proof.
  destruct r as [u|]; cbn [eref_ok eref_fields]; intros H.
  - rewrite dec_eref_entity, (uidjson_roundtrip _ H). reflexivity.
  - destruct s; reflexivity.
Qed.

Lemma pr_roundtrip s c : pr_ok c -> est_to_pr s (pr_to_est s c) = Ok c.
Proof.
  destruct c as [|r|r|t r|t]; cbn [pr_ok pr_to_est]; intros H.
  - reflexivity.
  - rewrite dec_pr_eq, (eref_roundtrip _ _ H). reflexivity.
  - rewrite dec_pr_in, (eref_roundtrip _ _ H). reflexivity.
  - destruct H as (Ht & Hr). rewrite dec_pr_is_in, Ht, (eref_roundtrip _ _ Hr). reflexivity.
  - rewrite dec_pr_is, H. reflexivity.
Qed.

Lemma pr_nodup s c : json_nodup (pr_to_est s c) = true.
Proof. destruct c as [|[u|]|[u|]|t [u|]|t]; reflexivity. Qed.

Lemma acts_roundtrip us : acts_ok us -> mapM uidjson_to_uid (map uid_json us) = Ok us.
Proof.
  intros H. apply mapM_map_ok. refine (all_impl act_ok _ us _ H). intros u (Hu & _). exact (uidjson_roundtrip _ Hu).
Qed.

Lemma acts_are_actions us : acts_ok us -> forallb is_action_uid us = true.
Proof.
  intros H. apply forallb_forall, Forall_forall. refine (all_impl act_ok _ us _ H). intros u (_ & Ha). exact Ha.
Qed.

Lemma ac_roundtrip c : ac_ok c -> est_to_ac (ac_to_est c) = Ok c.
Proof.
  destruct c as [|us|u]; cbn [ac_ok]; intros H.
  - reflexivity.
  - destruct us as [|u1 [|u2 us]]; cbn [ac_to_est].
    + reflexivity.
    + destruct H as ((Hu & Ha) & _). rewrite dec_ac_in_one, (uidjson_roundtrip _ Hu). cbn [bind].
      rewrite Ha. reflexivity.
    + rewrite dec_ac_in, (acts_roundtrip _ H). cbn [bind]. rewrite (acts_are_actions _ H). reflexivity.
  - destruct H as (Hu & Ha). cbn [ac_to_est]. rewrite dec_ac_eq, (uidjson_roundtrip _ Hu). cbn [bind].
    rewrite Ha. reflexivity.
Qed.

Lemma ac_nodup c : json_nodup (ac_to_est c) = true.
Proof.
  destruct c as [|us|u]; try reflexivity.
  destruct us as [|u1 [|u2 us]]; try reflexivity.
  apply nodup_pair; [reflexivity|reflexivity|].
  rewrite json_nodup_arr. apply forallb_map_ok, Forall_forall. reflexivity.
Qed.

Lemma ann_list_roundtrip a :
  ann_keys_ok a -> est_to_annotation_list (map (fun kv => (fst kv, JStr (snd kv))) a) = Ok a.
Proof.
  induction a as [|[k v] a IH]; cbn [ann_keys_ok map est_to_annotation_list fst snd]; [reflexivity|].
  intros (Hk & Ha). rewrite Hk, (IH Ha). reflexivity.
Qed.

Lemma annotations_roundtrip a :
  sort_assoc a = a -> ann_keys_ok a ->
  est_to_annotations (jget (K "annotations") (annotations_to_est a)) = Ok a.
Proof.
  destruct a as [|kv a]; [reflexivity|]. intros Hs Hk.
  cbn -[map est_to_annotation_list sort_assoc]. rewrite (ann_list_roundtrip _ Hk). cbn [bind]. rewrite Hs. reflexivity.
Qed.

Lemma annotations_nodup a :
  sort_assoc a = a -> forallb (fun kv => json_nodup (snd kv)) (annotations_to_est a) = true.
Proof.
  destruct a as [|kv a]; [reflexivity|]. intros Hs. cbn [annotations_to_est forallb snd].
  rewrite json_nodup_obj_map; [reflexivity | exact (sort_fix_nodup _ Hs) | apply Forall_forall; reflexivity].
Qed.

Lemma annotations_keys a :
  keys_exact ["effect"; "principal"; "action"; "resource"; "conditions"; "annotations"]%string
             (annotations_to_est a) = true.
Proof. destruct a; reflexivity. Qed.

Lemma effect_roundtrip e : effect_of (JStr (effect_str e)) = Ok e.
Proof. destruct e; reflexivity. Qed.

Lemma dec_template id ej pj aj rj cj rest :
  est_to_template_nocheck id
    (JObj ((K "effect", ej) :: (K "principal", pj) :: (K "action", aj) :: (K "resource", rj) ::
           (K "conditions", cj) :: rest)) =
  if keys_exact ["effect"; "principal"; "action"; "resource"; "conditions"; "annotations"]%string rest then
    do eff <- effect_of ej;
    do body <- conditions_to_ast cj;
    do ann <- est_to_annotations (jget (K "annotations") rest);
    do pc <- est_to_pr SlotPrincipal pj;
    do ac <- est_to_ac aj;
    do rc <- est_to_pr SlotResource rj;
    Ok (mkTemplate id ann eff pc ac rc body)
  else bad.
Proof. reflexivity. Qed.

(* the id is not in the JSON of a template: the reader is given it (in a policy-set document it
   is the key of the member) *)
Lemma template_roundtrip_nocheck t :
  TemplateRep t -> est_to_template_nocheck (tid t) (template_to_est t) = Ok t.
Proof.
  intros (Hp & Ha & Hr & Hs & Hk & Hb). unfold template_to_est. cbn [app].
  rewrite dec_template, annotations_keys, effect_roundtrip, (conditions_roundtrip _ Hb),
    (annotations_roundtrip _ Hs Hk), (pr_roundtrip _ _ Hp), (ac_roundtrip _ Ha), (pr_roundtrip _ _ Hr).
  destruct t; reflexivity.
Qed.

Lemma template_keys_nodup (e p a r c : json) ann :
  keys_nodup ([(K "effect", e); (K "principal", p); (K "action", a); (K "resource", r); (K "conditions", c)]
              ++ annotations_to_est ann) = true.
Proof. destruct ann; reflexivity. Qed.

Lemma template_nodup t : TemplateRep t -> json_nodup (template_to_est t) = true.
Proof.
  intros (_ & _ & _ & Hs & _ & Hb). unfold template_to_est.
  rewrite json_nodup_obj, template_keys_nodup, forallb_app, (annotations_nodup _ Hs). cbn [forallb snd].
  rewrite !pr_nodup, ac_nodup, (body_nodup _ Hb). reflexivity.
Qed.
