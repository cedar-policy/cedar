From Coq Require Import String.
From Cedar Require Import EstSet BaseFacts EstProofs EstPolicyProofs.
Open Scope Z_scope.

Fixpoint members_ok (m : list (str * template)) : Prop :=
  match m with
  | [] => True
  | it :: m' => tid (snd it) = fst it /\ TemplateRep (snd it) /\ members_ok m'
  end.

Definition env_ok (env : slotenv) : Prop :=
  keys_nodup (map (fun su => (slot_str (fst su), snd su)) env) = true /\
  (fix all (l : slotenv) : Prop := match l with [] => True | su :: l' => uid_ok (snd su) /\ all l' end) env.

Fixpoint links_ok (l : list link) : Prop :=
  match l with [] => True | k :: l' => env_ok (l_env k) /\ links_ok l' end.

(* The JSON-representable set descriptions: every member is a representable template stored under its own id,
   the keys of either member map are distinct, and a link binds each slot at most once, to entities whose
   type names read back. *)
Definition EstSetRep (d : estset) : Prop :=
  members_ok (es_templates d) /\ keys_nodup (es_templates d) = true /\
  members_ok (es_statics d) /\ keys_nodup (es_statics d) = true /\
  links_ok (es_links d).

Lemma dec_link t n vs :
  est_to_link (JObj [(K "templateId", JStr t); (K "newId", JStr n); (K "values", JObj vs)]) =
  (do env <- est_to_env vs; Ok (mkLink t n env)).
Proof. reflexivity. Qed.

Lemma dec_estset ts ss ls :
  est_to_estset_nocheck
    (JObj [(K "templates", JObj ts); (K "staticPolicies", JObj ss); (K "templateLinks", JArr ls)]) =
  (do st <- est_to_members ss; do tm <- est_to_members ts; do lk <- mapM est_to_link ls; Ok (mkEstSet tm st lk)).
Proof. reflexivity. Qed.

Lemma members_roundtrip m :
  members_ok m -> est_to_members (map (fun it => (fst it, template_to_est (snd it))) m) = Ok m.
Proof.
  induction m as [|[id t] m IH]; cbn [members_ok map est_to_members fst snd]; [reflexivity|].
  intros (Hid & Ht & Hm). subst id. rewrite (template_roundtrip_nocheck _ Ht), (IH Hm). reflexivity.
Qed.

Lemma members_nodup m :
  members_ok m -> keys_nodup m = true -> json_nodup (members_to_est m) = true.
Proof.
  intros Hm Hk. apply json_nodup_obj_map; [exact Hk|]. clear Hk.
  induction m as [|it m IH]; constructor; [apply template_nodup|apply IH]; apply Hm.
Qed.

Lemma env_roundtrip env :
  all (fun su => uid_ok (snd su)) env ->
  est_to_env (map (fun su => (slot_str (fst su), JObj [(K "__entity", uid_json (snd su))])) env) = Ok env.
Proof.
  induction env as [|[s u] env IH]; [reflexivity|]. intros (Hu & Hall). cbn [snd] in Hu.
  cbn [map fst snd est_to_env]. rewrite slot_of_str, dec_uid_explicit, (uidjson_roundtrip _ Hu), (IH Hall). reflexivity.
Qed.

Lemma link_roundtrip l : env_ok (l_env l) -> est_to_link (link_to_est l) = Ok l.
Proof.
  intros (_ & Hall). unfold link_to_est, env_to_est. rewrite dec_link, (env_roundtrip _ Hall).
  destruct l; reflexivity.
Qed.

Lemma links_roundtrip ls : links_ok ls -> mapM est_to_link (map link_to_est ls) = Ok ls.
Proof.
  intros H. apply mapM_map_ok. exact (all_impl (fun k => env_ok (l_env k)) _ ls link_roundtrip H).
Qed.

Lemma env_nodup env :
  keys_nodup (map (fun su => (slot_str (fst su), snd su)) env) = true ->
  json_nodup (env_to_est env) = true.
Proof.
  intros Hk. unfold env_to_est. rewrite json_nodup_obj. apply andb_true_iff. split.
  - etransitivity; [|exact Hk]. apply keys_nodup_keys. rewrite !map_map. reflexivity.
  - apply forallb_map_ok, Forall_forall. reflexivity.
Qed.

Lemma links_nodup ls : links_ok ls -> json_nodup (JArr (map link_to_est ls)) = true.
Proof.
  intros H. rewrite json_nodup_arr. apply forallb_map_ok.
  refine (all_impl (fun k => env_ok (l_env k)) _ ls _ H). intros l (Hk & _).
  unfold link_to_est. cbn -[env_to_est]. rewrite (env_nodup _ Hk). reflexivity.
Qed.

Lemma estset_nodup d : EstSetRep d -> json_nodup (estset_to_est d) = true.
Proof.
  intros (Ht & Hkt & Hs & Hks & Hl). unfold estset_to_est. rewrite json_nodup_obj. cbn [forallb snd].
  rewrite (members_nodup _ Ht Hkt), (members_nodup _ Hs Hks), (links_nodup _ Hl). reflexivity.
Qed.
