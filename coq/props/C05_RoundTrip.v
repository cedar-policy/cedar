(* C05 — policy text -> AST -> text round trip.
   The escape stage: every string the printer emits through escape_debug (string literals, entity
   ids, annotation values, record keys, quoted attribute names) is read back unchanged by
   to_unescaped_string, and every pattern printed by Display for Pattern is read back unchanged by
   to_pattern — for ALL strings / patterns of scalar values and for EVERY choice of the two
   "rendered as \u{..}" predicates (so the statement does not depend on the Unicode tables of the
   Rust standard library).
   The expression stage: c05_expr_roundtrip, the token-level round trip  parse (print e) = e  for
   every printable expression; c05_meaning: printing never changes meaning.
   Not proved (see notes/C05.md): c05_lex_render (checked executably on every case),
   c05_policy_roundtrip, c05_policyset. *)
From Cedar Require Import UnescapeProofs Relex Eval Printable ParseProofs3.
Open Scope N_scope.

Theorem c05_escape :
  forall (np ge : N -> bool) (s : str),
    wf_str s = true -> to_unescaped_string (escape_debug np ge s) = UOk s.
Proof. exact unescape_escape. Qed.
Print Assumptions c05_escape.

Theorem c05_escape_pattern :
  forall (np ge : N -> bool) (p : pattern),
    wf_pattern p = true -> to_pattern (show_pattern np ge p) = UOk p.
Proof. exact to_pattern_show. Qed.
Print Assumptions c05_escape_pattern.

(* the part of c05_lex_render that concerns quoted text: what the printer puts between quotes
   (escape_debug for strings / ids / keys / annotation values, Display for Pattern) matches the inside
   of the STRINGLIT token regex — no bare quote, no dangling backslash, no backslash-newline — so it
   lexes back as ONE string token, whose content is then recovered by c05_escape / c05_escape_pattern. *)
Theorem c05_escape_relex :
  forall (np ge : N -> bool) (s : str), stringlit_inside (escape_debug np ge s) = true.
Proof. exact escape_debug_relexes. Qed.
Print Assumptions c05_escape_relex.

Theorem c05_escape_pattern_relex :
  forall (np ge : N -> bool) (p : pattern), stringlit_inside (show_pattern np ge p) = true.
Proof. exact show_pattern_relexes. Qed.
Print Assumptions c05_escape_pattern_relex.

Example c05_relex_ex :
  stringlit_inside [97; 34] = false /\ stringlit_inside [92] = false /\ stringlit_inside [92; 10] = false /\
  stringlit_inside [92; 34; 92; 92] = true.
Proof. vm_compute. repeat split. Qed.

(* non-vacuity: concrete strings / patterns with quotes, backslash, NUL, star, a combining mark and a
   non-BMP character; predicates that escape the combining mark and U+200B *)
Example c05_escape_ex :
  let np := fun c => c =? 8203 in let ge := fun c => c =? 769 in
  let s := [769; 34; 92; 0; 42; 10; 39; 128512; 8203; 769; 97] in
  wf_str s = true /\
  escape_debug np ge s =
    [92;117;123;51;48;49;125; 92;34; 92;92; 92;48; 42; 92;110; 92;39; 128512; 92;117;123;50;48;48;98;125; 769; 97] /\
  to_unescaped_string (escape_debug np ge s) = UOk s.
Proof. vm_compute. repeat split. Qed.

Example c05_escape_pattern_ex :
  let np := fun c => c =? 8203 in let ge := fun c => c =? 769 in
  let p := [PChar 97; PStar; PChar 42; PChar 92; PChar 769; PStar; PChar 34] in
  wf_pattern p = true /\
  show_pattern np ge p = [97; 42; 92;42; 92;92; 92;117;123;51;48;49;125; 42; 92;34] /\
  to_pattern (show_pattern np ge p) = UOk p.
Proof. vm_compute. repeat split. Qed.

(* the reject side of the escape reader: forms the implementation refuses *)
Example c05_unescape_rejects :
  to_unescaped_string [92; 42] = UErr /\                      (* \* outside a pattern *)
  to_unescaped_string [92; 117; 123; 100; 56; 48; 48; 125] = UErr /\   (* \u{d800} *)
  to_unescaped_string [92; 120; 56; 48] = UErr /\             (* \x80 *)
  to_unescaped_string [92; 117; 123; 95; 52; 49; 125] = UErr /\ (* \u{_41} *)
  to_unescaped_string [92; 117; 123; 52; 95; 49; 125] = UOk [65] /\ (* \u{4_1} *)
  to_pattern [92; 117; 123; 50; 97; 125; 92; 42] = UOk [PStar; PChar 42].
Proof. vm_compute. repeat split. Qed.

(* The expression round trip on token lists.
   For EVERY printable expression (Printable.printable: the closed description of the ASTs the lowering
   of cst_to_ast can produce — i64 literals, scalar-value strings, identifier names that are not
   reserved, And/Or not of two boolean literals, known extension functions with their call style,
   strictly key-sorted records, no Unknown) parsing the printed token list gives the expression back:
   all literals (negative ones and i64::MIN print as (-N)), variables, slots, ! and -, the infix
   operators with their left-associative chains printed without parentheses, && ||, if-then-else,
   attribute chains .a / ["a b"], has / like / is, method calls (.contains .. .hasTag, .isEmpty and
   method-style extension functions), function-style extension calls, set and record literals (keys
   in identifier or string form), nested arbitrarily. *)
Theorem c05_expr_roundtrip :
  forall (np ge : N -> bool) (e : expr),
    printable e = true -> parse_expr_toks (print_toks np ge e) = Some e.
Proof. exact expr_roundtrip. Qed.
Print Assumptions c05_expr_roundtrip.

(* with a continuation: the parser stops exactly at the end of the printed expression whenever the
   next token cannot continue an expression (follow_ok 0) *)
Theorem c05_expr_roundtrip_rest :
  forall (np ge : N -> bool) (e : expr) (rest : list token),
    printable e = true -> follow_ok 0 rest = true ->
    parse_expr (S (length (print_toks np ge e ++ rest))) (print_toks np ge e ++ rest)
      = Some (sp np ge e, rest) /\ into_expr (sp np ge e) = Some e.
Proof. exact expr_roundtrip_rest. Qed.
Print Assumptions c05_expr_roundtrip_rest.

(* printing never changes meaning: what the parser reads back from the printed tokens evaluates
   exactly like the original, on every request, entity store and slot environment (Eval.eval of C02) *)
Theorem c05_meaning :
  forall (np ge : N -> bool) (e : expr),
    printable e = true ->
    exists e', parse_expr_toks (print_toks np ge e) = Some e' /\
               forall sl q es, eval sl q es e' = eval sl q es e.
Proof.
  intros np ge e Hp. exists e. split; [apply expr_roundtrip; exact Hp|reflexivity].
Qed.
Print Assumptions c05_meaning.

(* non-vacuity: a printable expression using most constructs (if, &&, ||, has, like, is,
   attribute chains with identifier and quoted names, !, unary minus, i64::MIN, -, ==, an entity id with a quote) *)
Example c05_expr_roundtrip_ex :
  let np := fun c => c =? 8203 in let ge := fun c => c =? 769 in
  let e := If (And (HasAttr (GetAttr (GetAttr (Var Principal) [97]) [98; 32; 99]) [120; 32; 121])
                   (UnApp UNot (BinApp BLess (UnApp UNeg (Lit (PLong 1)))
                                  (BinApp BMul (Lit (PLong (-9223372036854775808))) (Lit (PLong 2))))))
             (Like (GetAttr (RecordE [([97], SetE [Lit (PLong 1); ExtCall [[100;101;99;105;109;97;108]] [Lit (PString [49;46;48])]]); ([98;32;99], BinApp BContains (SetE []) (UnApp UIsEmpty (Var Context)))]) [97]) [PChar 97; PStar; PChar 42])
             (Or (Is (Lit (PEntity (mkUid [[65]; [66]] [113; 34]))) [[65]; [66]])
                 (And (And (BinApp BEq (BinApp BSub (BinApp BSub (Lit (PLong 1)) (BinApp BSub (Lit (PLong 2)) (Lit (PLong 3)))) (Lit (PLong 5))) (Lit (PLong 4)))
                           (Var Principal)) (BinApp BLess (BinApp BMul (BinApp BMul (Lit (PLong 2)) (Lit (PLong 3))) (Lit (PLong 4))) (BinApp BAdd (BinApp BAdd (Lit (PLong 1)) (Lit (PLong 1))) (Lit (PLong 1)))))) in
  printable e = true /\ parse_expr_toks (print_toks np ge e) = Some e.
Proof. vm_compute. repeat split. Qed.
