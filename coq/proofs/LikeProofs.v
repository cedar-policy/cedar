(* Every iteration of Like.wildcard_loop keeps `Inv`, which ties its answer to `Matches`, and lowers wl_measure. *)
From Coq Require Import Lia.
From Cedar Require Import Like EvalProofs.
Local Open Scope nat_scope.

Lemma matches_nil_l s : Matches [] s <-> s = [].
Proof. split; intros H; [inversion H; reflexivity | subst; constructor]. Qed.

Lemma matches_char x p s : Matches (PChar x :: p) s <-> exists s', s = x :: s' /\ Matches p s'.
Proof.
  split.
  - intros H; inversion H; subst; eauto.
  - intros [s' [E H]]; subst; constructor; assumption.
Qed.

Lemma matches_star p s : Matches (PStar :: p) s <-> exists u t, s = u ++ t /\ Matches p t.
Proof.
  split.
  - intros H. remember (PStar :: p) as q eqn:Eq. induction H; try discriminate.
    + inversion Eq; subst. exists [], s; split; [reflexivity | assumption].
    + inversion Eq; subst. destruct (IHMatches eq_refl) as [u [t [E Ht]]]. subst.
      exists (c :: u), t; split; [reflexivity | assumption].
  - intros [u [t [E Ht]]]; subst. induction u as [|c u IH]; cbn.
    + apply M_star_skip; assumption.
    + apply M_star_eat; assumption.
Qed.

Lemma matches_chars w p t : Matches (map PChar w ++ p) t <-> exists t', t = w ++ t' /\ Matches p t'.
Proof.
  revert t; induction w as [|c w IH]; intros t; cbn.
  - split; [intros H; exists t; auto | intros [t' [E H]]; subst; assumption].
  - rewrite matches_char. split.
    + intros [s' [E H]]. apply IH in H as [t' [E' H]]. subst. exists t'; auto.
    + intros [t' [E H]]. subst. exists (w ++ t'); split; [reflexivity|]. apply IH. eauto.
Qed.

(* the alternatives kept at the backtrack point: retry pb against a strictly later suffix of sb *)
Definition Alt (bt : option (pattern * str)) : Prop :=
  match bt with
  | Some (pb, _ :: sb') => Matches (PStar :: pb) sb'
  | _ => False
  end.

(* since the last star only literal characters were consumed *)
Definition WF (s : str) (p : pattern) (bt : option (pattern * str)) : Prop :=
  match bt with
  | None => True
  | Some (pb, sb) => exists w, pb = map PChar w ++ p /\ sb = w ++ s
  end.

(* Q: the question the loop was started on *)
Definition Inv (Q : Prop) (s : str) (p : pattern) (bt : option (pattern * str)) : Prop :=
  (Q <-> Matches p s \/ Alt bt) /\ WF s p bt.

Lemma matches_star_alt p s : Matches (PStar :: p) s <-> Matches p s \/ Alt (Some (p, s)).
Proof.
  split.
  - intros H; inversion H; subst; [left | right]; assumption.
  - intros [H|H]; [apply M_star_skip, H|]. destruct s; [destruct H | apply M_star_eat, H].
Qed.

Lemma all_stars_spec p : all_stars p = true <-> Matches p [].
Proof.
  induction p as [|[c|] p IH]; cbn.
  - split; [constructor | reflexivity].
  - split; [discriminate | intros H; inversion H].
  - apply (iff_trans IH). split; [apply M_star_skip|].
    intros H. apply matches_star_alt in H as [H|[]]. exact H.
Qed.

Lemma app_suffix_shift {A} (u w t s : list A) : u ++ w ++ t = w ++ s -> exists l, s = l ++ t.
Proof.
  intros E. rewrite app_assoc in E. apply app_eq_app in E as [l [[_ E]|[E1 E2]]].
  - exists l; exact E.
  - apply (f_equal (@length A)) in E1. rewrite !app_length in E1.
    destruct l; [exists []; symmetry; exact E2 | cbn in E1; lia].
Qed.

(* at a new star the older alternatives can be forgotten: the new star covers them *)
Lemma alt_subsumed s p bt : WF s (PStar :: p) bt -> Alt bt -> Matches (PStar :: p) s.
Proof.
  destruct bt as [[pb [|c0 sb']]|]; cbn; try contradiction. intros [w [-> Es]] H.
  apply matches_star in H as [u [t [-> H]]]. apply matches_chars in H as [t' [-> H]].
  destruct (app_suffix_shift (c0 :: u) w t' s Es) as [l ->].
  apply matches_star in H as [u2 [t2 [-> H]]].
  apply matches_star. exists (l ++ u2), t2. split; [apply app_assoc | exact H].
Qed.

Lemma alt_at_end p bt : WF [] p bt -> ~ Alt bt.
Proof.
  destruct bt as [[pb [|c0 sb']]|]; cbn; try tauto. intros [w [-> Es]] H.
  apply matches_star in H as [u [t [-> H]]]. apply matches_chars in H as [t' [-> _]].
  rewrite app_nil_r in Es. apply (f_equal (@length N)) in Es. cbn [length] in Es. rewrite !app_length in Es. lia.
Qed.

Lemma wf_restart s p : WF s p (Some (p, s)).
Proof. exists []; auto. Qed.

Lemma inv_star Q s p bt : Inv Q s (PStar :: p) bt -> Inv Q s p (Some (p, s)).
Proof.
  intros [HQ HW]. split; [|apply wf_restart]. apply (iff_trans HQ). split.
  - intros [M|A]; apply matches_star_alt; [exact M | exact (alt_subsumed s p bt HW A)].
  - intros H. left. apply matches_star_alt, H.
Qed.

Lemma inv_char Q c s p bt : Inv Q (c :: s) (PChar c :: p) bt -> Inv Q s p bt.
Proof.
  intros [HQ HW]. split.
  - apply (iff_trans HQ). split.
    + intros [M|A]; [left; inversion M; assumption | right; exact A].
    + intros [M|A]; [left; apply M_char, M | right; exact A].
  - destruct bt as [[pb sb]|]; [|exact I]. destruct HW as [w [-> ->]].
    exists (w ++ [c]). rewrite map_app, <- !app_assoc. auto.
Qed.

Lemma inv_backtrack Q s p pb c0 sb :
  ~ Matches p s -> Inv Q s p (Some (pb, c0 :: sb)) -> Inv Q sb pb (Some (pb, sb)).
Proof.
  intros NM [HQ _]. split; [|apply wf_restart]. apply (iff_trans HQ). cbn [Alt]. split.
  - intros [M|A]; [contradiction | apply matches_star_alt, A].
  - intros H. right. apply matches_star_alt, H.
Qed.

Lemma measure_star c s p bt :
  WF (c :: s) (PStar :: p) bt ->
  wl_measure (c :: s) p (Some (p, c :: s)) < wl_measure (c :: s) (PStar :: p) bt.
Proof.
  destruct bt as [[pb sb]|]; cbn [wl_measure WF].
  - intros [w [-> ->]]. rewrite !app_length, map_length. cbn [length].
    remember (length s) as a. remember (length p) as b. remember (length w) as k. nia.
  - intros _. cbn [length]. remember (length s) as a. remember (length p) as b. nia.
Qed.

Lemma measure_char c s x p bt : wl_measure s p bt < wl_measure (c :: s) (PChar x :: p) bt.
Proof.
  destruct bt as [[pb sb]|]; cbn [wl_measure length].
  - lia.
  - remember (length s) as a. remember (length p) as b. nia.
Qed.

Lemma measure_backtrack s p pb c0 sb :
  wl_measure sb pb (Some (pb, sb)) < wl_measure s p (Some (pb, c0 :: sb)).
Proof.
  cbn [wl_measure length]. remember (length sb) as a. remember (length pb) as b. nia.
Qed.

Inductive step :=
| Done (b : bool)
| Next (s : str) (p : pattern) (bt : option (pattern * str)).

Definition backtrack (bt : option (pattern * str)) : step :=
  match bt with
  | Some (pb, _ :: sb') => Next sb' pb (Some (pb, sb'))
  | _ => Done false
  end.

Definition advance (c : N) (s' : str) (p : pattern) (bt : option (pattern * str)) : step :=
  match p with
  | PStar :: p' => Next (c :: s') p' (Some (p', c :: s'))
  | PChar x :: p' => if N.eqb x c then Next s' p' bt else backtrack bt
  | [] => backtrack bt
  end.

Definition wl_step (s : str) (p : pattern) (bt : option (pattern * str)) : step :=
  match s with
  | [] => Done (all_stars p)
  | c :: s' =>
      match bt with
      | Some ([], _) => Done (all_stars p)
      | _ => advance c s' p bt
      end
  end.

Lemma wl_unfold f s p bt :
  wl (S f) s p bt = match wl_step s p bt with
                    | Done b => Some b
                    | Next s' p' bt' => wl f s' p' bt'
                    end.
Proof.
  cbn [wl]. unfold wl_step, advance, backtrack.
  destruct s as [|c s']; [reflexivity|].
  destruct bt as [[[|e pb] sb]|]; [reflexivity | |]; destruct p as [|[x|] p']; try reflexivity.
  - destruct sb; reflexivity.
  - destruct (N.eqb x c); [reflexivity | destruct sb; reflexivity].
  - destruct (N.eqb x c); reflexivity.
Qed.

Definition step_ok (Q : Prop) (s : str) (p : pattern) (bt : option (pattern * str)) (st : step) : Prop :=
  match st with
  | Done b => b = true <-> Q
  | Next s' p' bt' => Inv Q s' p' bt' /\ wl_measure s' p' bt' < wl_measure s p bt
  end.

Lemma backtrack_ok Q c s p bt :
  ~ Matches p (c :: s) -> Inv Q (c :: s) p bt -> step_ok Q (c :: s) p bt (backtrack bt).
Proof.
  intros NM HI. destruct bt as [[pb [|c0 sb]]|]; cbn [backtrack step_ok].
  - (* sb ends with c :: s *)
    destruct HI as [_ [w [_ Es]]]. destruct w; discriminate.
  - split; [exact (inv_backtrack Q _ _ _ _ _ NM HI) | apply measure_backtrack].
  - destruct HI as [HQ _]. split; [discriminate|]. intros HQ'. destruct (proj1 HQ HQ') as [M|[]]. contradiction.
Qed.

Lemma advance_ok Q c s p bt : Inv Q (c :: s) p bt -> step_ok Q (c :: s) p bt (advance c s p bt).
Proof.
  intros HI. destruct p as [|[x|] p]; cbn [advance].
  - apply backtrack_ok; [intros M; inversion M | exact HI].
  - destruct (N.eqb_spec x c) as [->|Ne].
    + split; [exact (inv_char Q _ _ _ _ HI) | apply measure_char].
    + apply backtrack_ok; [intros M; inversion M; congruence | exact HI].
  - split; [exact (inv_star Q _ _ _ HI) | apply measure_star, HI].
Qed.

Lemma wl_step_ok Q s p bt : Inv Q s p bt -> step_ok Q s p bt (wl_step s p bt).
Proof.
  intros HI. destruct s as [|c s]; [|destruct bt as [[[|e pb] sb]|]]; cbn [wl_step step_ok].
  - (* end of text *)
    destruct HI as [HQ HW]. split.
    + intros E. apply HQ. left. apply all_stars_spec, E.
    + intros HQ'. apply all_stars_spec. destruct (proj1 HQ HQ') as [M|A]; [exact M | destruct (alt_at_end p bt HW A)].
  - (* the last star closes the pattern and takes the rest of the text *)
    destruct HI as [HQ [w [Ep Es]]]. symmetry in Ep. apply app_eq_nil in Ep as [Ew ->].
    destruct w; [|discriminate]. cbn in Es; subst sb. split; [intros _ | reflexivity].
    apply HQ. right. apply matches_star. exists s, []. split; [symmetry; apply app_nil_r | constructor].
  - apply advance_ok, HI.
  - apply advance_ok, HI.
Qed.

Theorem wl_spec Q : forall fuel s p bt,
  Inv Q s p bt -> wl_measure s p bt < fuel -> exists b, wl fuel s p bt = Some b /\ (b = true <-> Q).
Proof.
  induction fuel as [|f IH]; intros s p bt HI HM; [lia|].
  rewrite wl_unfold. pose proof (wl_step_ok Q s p bt HI) as St.
  destruct (wl_step s p bt) as [b|s' p' bt'].
  - exists b; split; [reflexivity | exact St].
  - destruct St as [HI' HM']. apply IH; [exact HI' | lia].
Qed.

Theorem wl_terminates : forall fuel s p bt,
  WF s p bt -> wl_measure s p bt < fuel -> wl fuel s p bt <> None.
Proof.
  intros fuel s p bt HW HM.
  destruct (wl_spec (Matches p s \/ Alt bt) fuel s p bt) as [b [E _]];
    [split; [reflexivity | exact HW] | exact HM | rewrite E; discriminate].
Qed.

Lemma wl_decides p s : wl (wl_fuel p s) s p None = Some (wildcard p s).
Proof.
  destruct (wl_spec (Matches p s) (wl_fuel p s) s p None) as [b [E H]].
  - split; [cbn; tauto | exact I].
  - unfold wl_fuel; lia.
  - rewrite E. f_equal. apply Bool.eq_true_iff_eq. rewrite H. symmetry; apply wildcard_iff.
Qed.

Theorem wildcard_loop_correct p s : wildcard_loop p s = wildcard p s.
Proof.
  unfold wildcard_loop. destruct p as [|e p']; [destruct s; reflexivity|]. rewrite wl_decides. reflexivity.
Qed.
