(* C20 x C08: the panic!() sites of ast::PolicySet::{unlink, remove_template} and of
   cedar_policy::PolicySet::{unlink, remove_template}, and the `expect` of its `link` (outcome `OErr EPanic` in model/PolicySet.v) are
   unreachable under the invariant of C08 (PolicySetWF.WF / WFapi), hence along every merge-free history of
   API operations from the empty policy set. *)
From Cedar Require Import PolicySet BaseFacts PolicySetWF.

Lemma ps_add_err s p e : ps_add s p = OErr e -> e = EOccupied.
Proof.
  unfold ps_add. destruct (alookup _ (ps_templates s)).
  - destruct (negb _); [intros [= <-]; reflexivity|].
    destruct (amem _ _); intros [= <-]; reflexivity.
  - destruct (amem _ _); intros [= <-]; reflexivity.
Qed.

Lemma ps_add_template_err s t e : ps_add_template s t = OErr e -> e = EOccupied.
Proof.
  unfold ps_add_template. destruct (amem _ (ps_links s)); [intros [= <-]; reflexivity|].
  destruct (amem _ _); intros [= <-]; reflexivity.
Qed.

Lemma ps_unlink_err s i e :
  WF s -> ps_unlink s i = OErr e -> e = ENotLink \/ e = ELinkNonexistent /\ alookup i (ps_links s) = None.
Proof.
  intros W. unfold ps_unlink.
  destruct (amem i (ps_templates s)); [intros [= <-]; auto|].
  destruct (alookup i (ps_links s)) as [p|] eqn:EL; [|intros [= <-]; auto].
  destruct (alookup (tid (ptemplate p)) (ps_t2l s)) eqn:EM; [discriminate|].
  (* the panic site: the link's template has no entry in template_to_links *)
  destruct (wf_link _ W _ _ EL) as [_ [B _]]. apply (wf_t2l_dom _ W) in EM. congruence.
Qed.

Lemma ps_remove_template_err s i e :
  WF s -> ps_remove_template s i = OErr e ->
  e = ENotTemplate \/ e = ETemplateHasLinks \/ e = ETemplateNonexistent /\ alookup i (ps_templates s) = None.
Proof.
  intros W. unfold ps_remove_template.
  destruct (amem i (ps_links s)); [intros [= <-]; auto|].
  destruct (alookup i (ps_t2l s)) as [[|x l]|] eqn:EM.
  - destruct (amem i (ps_templates s)) eqn:ET; [discriminate|].
    (* the panic site: an entry in template_to_links without its template *)
    apply amem_false in ET. apply (wf_t2l_dom _ W) in ET. congruence.
  - intros [= <-]. auto.
  - intros [= <-]. apply (wf_t2l_dom _ W) in EM. auto.
Qed.

Lemma ps_unlink_no_panic s i : WF s -> ps_unlink s i <> OErr EPanic.
Proof. intros W H. destruct (ps_unlink_err _ _ _ W H) as [E|[E _]]; discriminate E. Qed.

Lemma ps_remove_template_no_panic s i : WF s -> ps_remove_template s i <> OErr EPanic.
Proof. intros W H. destruct (ps_remove_template_err _ _ _ W H) as [E|[E|[E _]]]; discriminate E. Qed.

Lemma api_add_no_panic a p : api_add a p <> OErr EPanic.
Proof.
  unfold api_add. destruct (p_is_static p); [|discriminate].
  destruct (ps_add (a_ast a) p) eqn:E; [discriminate|]. apply ps_add_err in E. subst. discriminate.
Qed.

Lemma api_add_template_no_panic a t : api_add_template a t <> OErr EPanic.
Proof.
  unfold api_add_template. destruct (ps_add_template (a_ast a) t) eqn:E; [discriminate|].
  apply ps_add_template_err in E. subst. discriminate.
Qed.

(* the link that ps_link just inserted is found again: the `expect` in cedar_policy::PolicySet::link *)
Lemma api_link_no_panic a tmpl new env : api_link a tmpl new env <> OErr EPanic.
Proof.
  unfold api_link. destruct (alookup tmpl (a_templates a)) as [t0|]; [|destruct (amem _ _); discriminate].
  unfold ps_link. destruct (alookup tmpl (ps_templates (a_ast a))) as [t|]; [|discriminate].
  destruct (t_is_static t && amem tmpl (ps_links (a_ast a))); [discriminate|].
  destruct (negb (check_binding t env)); [discriminate|].
  destruct (amem new (ps_links (a_ast a))); [discriminate|].
  destruct (amem new (ps_templates (a_ast a))); [discriminate|].
  cbn [ps_links]. rewrite alookup_ainsert, str_eqb_refl. discriminate.
Qed.

Lemma api_unlink_no_panic a i : WFapi a -> api_unlink a i <> OErr EPanic.
Proof.
  intros WA. unfold api_unlink.
  destruct (alookup i (a_policies a)) as [p|] eqn:EP; [|discriminate]. rewrite (wa_pol _ WA) in EP.
  destruct (ps_unlink (a_ast a) i) as [[s' q]|e] eqn:E; [discriminate|].
  destruct (ps_unlink_err _ _ _ (wa_ast _ WA) E) as [->|[_ EN]]; [discriminate | congruence].
Qed.

Lemma api_remove_template_no_panic a i : WFapi a -> api_remove_template a i <> OErr EPanic.
Proof.
  intros WA. unfold api_remove_template.
  destruct (alookup i (a_templates a)) as [t0|] eqn:ET; [|discriminate]. rewrite (wa_tpl _ WA) in ET.
  destruct (ps_remove_template (a_ast a) i) as [s'|e] eqn:E; [discriminate|].
  destruct (ps_remove_template_err _ _ _ (wa_ast _ WA) E) as [->|[->|[_ EN]]]; [discriminate | discriminate |].
  rewrite EN in ET. discriminate ET.
Qed.

Lemma api_remove_static_no_panic a i : api_remove_static a i <> OErr EPanic.
Proof.
  unfold api_remove_static. destruct (alookup i (a_policies a)); [|discriminate].
  destruct (ps_remove_static (a_ast a) i) as [[s' q]|]; discriminate.
Qed.

Lemma step_no_panic {A} (r0 : ores A) (k : A -> hstate * step_result) h :
  r0 <> OErr EPanic -> (forall x, fst (snd (k x)) = OOk tt) ->
  fst (snd (match r0 with OOk x => k x | OErr e => (h, (OErr e, [])) end)) <> OErr EPanic.
Proof. intros NP K. destruct r0 as [x|e]; [rewrite K; discriminate | cbn; congruence]. Qed.

Lemma api_step_no_panic h o : Hinv h -> no_merge o -> fst (snd (api_step h o)) <> OErr EPanic.
Proof.
  intros [WA _] NM. destruct o; cbn [api_step]; try contradiction.
  - destruct (t_is_static t); [|cbn; discriminate]. apply step_no_panic; [apply api_add_no_panic | reflexivity].
  - destruct (t_is_static t); [|cbn; discriminate]. apply step_no_panic; [apply api_add_no_panic | reflexivity].
  - destruct (t_is_static t); [cbn; discriminate|].
    apply step_no_panic; [apply api_add_template_no_panic | reflexivity].
  - apply step_no_panic; [apply api_link_no_panic | reflexivity].
  - apply step_no_panic; [exact (api_unlink_no_panic _ _ WA) | intros [a p]; reflexivity].
  - apply step_no_panic; [apply api_remove_static_no_panic | intros [a p]; reflexivity].
  - apply step_no_panic; [exact (api_remove_template_no_panic _ _ WA) | reflexivity].
  - destruct (h_stash h); [cbn; discriminate|]. apply step_no_panic; [apply api_add_no_panic | reflexivity].
Qed.

Theorem api_history_no_panic : forall pre o,
  Forall no_merge pre -> no_merge o ->
  fst (snd (api_step (run_ops api_step pre empty_h) o)) <> OErr EPanic.
Proof.
  intros pre o F NM. apply api_step_no_panic; [|exact NM].
  apply api_history_Hinv; [exact Hinv_empty|exact F].
Qed.
