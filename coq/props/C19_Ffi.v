(* C19 — JSON/FFI, stateful cache and CLI front ends give exactly the API answers.

   The cache theorems quantify over ARBITRARY parsers (`parse_pset`, `parse_schema`) and an
   arbitrary function `authorize` standing for everything the stateless and the stateful entry
   point do after policies and schema are available (uid/context/request/entities parsing and
   Authorizer::is_authorized): the reference for those is the Rust API, not a model.  What is proved
   is the part the front end adds: the name-indexed cache over call histories.  That the two Rust
   code paths after the look-up coincide is checked by the oracle of vp/props/c19.py, not proved.
   Outside the model: thread-local storage across threads, the wasm bindings. *)
From Cedar Require Import Ffi FfiProofs.

Section C19.
  Variables src pset schema call answer : Type.
  Variable parse_pset : src -> option pset.
  Variable parse_schema : src -> option schema.
  Variable authorize : pset -> option schema -> call -> answer.

  Notation step := (step src pset schema call answer parse_pset parse_schema authorize).
  Notation run := (run src pset schema call answer parse_pset parse_schema authorize).
  Notation trace := (trace src pset schema call answer parse_pset parse_schema authorize).
  Notation reg_pset := (reg_pset src pset call parse_pset).
  Notation reg_schema := (reg_schema src schema call parse_schema).
  Notation spec_of := (spec_of src pset schema call parse_pset parse_schema).
  Notation meets := (meets src pset schema call answer parse_pset parse_schema authorize).

  (* For every history and every stateful call occurring in it: the answer is the one the
     stateless entry point gives on the SOURCES last successfully registered under the names the
     call uses (`meets .. (SpecStateless ps ss)`: stateless ps ss c = SAuth r and the answer is r),
     and a "not found" failure naming exactly the missing kinds when there is no such
     registration. *)
  Theorem c19_stateful :
    forall (h1 h2 : list (op src call)) (sn : option cname) (pn : cname) (c : call),
      exists a, nth_error (trace (h1 ++ StatefulAuth sn pn c :: h2)) (length h1) = Some a
                /\ meets a (spec_of h1 sn pn) c.
  Proof. intros h1 h2 sn pn c. eexists. split; [apply trace_from_nth | apply stateful_meets]. Qed.

  Theorem c19_stateful_final :
    forall (h : list (op src call)) (sn : option cname) (pn : cname) (c : call),
      meets (snd (step (run h) (StatefulAuth sn pn c))) (spec_of h sn pn) c.
  Proof. exact (stateful_meets src pset schema call answer parse_pset parse_schema authorize). Qed.

  (* the stateful answer is a function of the last successful registrations under the two names
     the call uses — policy set AND schema; nothing else of the history matters *)
  Theorem c19_stateful_depends_only :
    forall (h h' : list (op src call)) (sn : option cname) (pn : cname) (c : call),
      reg_pset h pn = reg_pset h' pn ->
      (forall n, sn = Some n -> reg_schema h n = reg_schema h' n) ->
      snd (step (run h) (StatefulAuth sn pn c)) = snd (step (run h') (StatefulAuth sn pn c)).
  Proof.
    intros h h' sn pn c Hp Hs.
    apply (meets_fun src pset schema call answer parse_pset parse_schema authorize _ _ (spec_of h sn pn) c);
      [apply stateful_meets|].
    replace (spec_of h sn pn) with (spec_of h' sn pn); [apply stateful_meets|].
    unfold Ffi.spec_of. rewrite Hp. destruct sn as [n|]; [rewrite (Hs n eq_refl)|]; reflexivity.
  Qed.

  (* a registration whose source does not parse leaves the cache as it was *)
  Theorem c19_failed_preparse_noop :
    forall (st : state pset schema) (n : cname) (s : src),
      (parse_pset s = None -> step st (PreparsePset n s) = (st, AParse false)) /\
      (parse_schema s = None -> step st (PreparseSchema n s) = (st, AParse false)).
  Proof. intros st n s. split; intros H; cbn [Ffi.step]; rewrite H; reflexivity. Qed.

  Theorem c19_auth_readonly :
    forall (st : state pset schema) sn pn (c : call), fst (step st (StatefulAuth sn pn c)) = st.
  Proof. reflexivity. Qed.

  (* registrations under another name, of the other kind, and authorization calls do not change
     what is registered under a name *)
  Theorem c19_names_independent :
    forall (h : list (op src call)) (n n' : cname) (s : src) (c : call) sn pn,
      (str_eqb n n' = false -> reg_pset (h ++ [PreparsePset n' s]) n = reg_pset h n) /\
      (str_eqb n n' = false -> reg_schema (h ++ [PreparseSchema n' s]) n = reg_schema h n) /\
      reg_pset (h ++ [PreparseSchema n' s]) n = reg_pset h n /\
      reg_schema (h ++ [PreparsePset n' s]) n = reg_schema h n /\
      reg_pset (h ++ [StatefulAuth sn pn c]) n = reg_pset h n /\
      reg_schema (h ++ [StatefulAuth sn pn c]) n = reg_schema h n.
  Proof.
    intros h n n' s c sn pn. rewrite !reg_pset_snoc, !reg_schema_snoc.
    repeat split; try reflexivity; intros H; rewrite H; reflexivity.
  Qed.
End C19.
Print Assumptions c19_stateful.
Print Assumptions c19_stateful_final.
Print Assumptions c19_stateful_depends_only.
Print Assumptions c19_failed_preparse_noop.
Print Assumptions c19_auth_readonly.
Print Assumptions c19_names_independent.

(* policies given as one text: the i-th policy carries the id policy<i> *)
Theorem c19_assembly_ids :
  forall (B : Type) (ps : list B) (i : nat) (b : B),
    nth_error ps i = Some b ->
    nth_error (assign_ids (Concatenated ps)) i = Some (policy_id (N.of_nat i), b).
Proof.
  intros B ps i b H. cbn [assign_ids]. apply nth_error_combine; [|exact H].
  rewrite ids_from_nth; [reflexivity|]. apply nth_error_Some. congruence.
Qed.
Print Assumptions c19_assembly_ids.

(* ... these ids are pairwise distinct for every length: assembling a text never fails on ids *)
Theorem c19_assembly_text_ok :
  forall (B : Type) (ps : list B), assemble (Concatenated ps) = Some (assign_ids (Concatenated ps)).
Proof.
  intros B ps. unfold assemble. cbn [assign_ids].
  rewrite map_fst_combine by apply ids_from_length. rewrite nodup_ids_from. reflexivity.
Qed.
Print Assumptions c19_assembly_text_ok.

(* policies given as a JSON array: each element is parsed with id None, i.e. `policy0` for a text
   element and `JSON policy` for a JSON element, so two elements of the same kind ALWAYS collide
   (what the code does; finding F-C19-array in notes/C19.md) *)
Theorem c19_assembly_set_fails :
  forall (B : Type) (k : bool) (b1 b2 : B) (l1 l2 l3 : list (bool * B)),
    assemble (SetOf (l1 ++ (k, b1) :: l2 ++ (k, b2) :: l3)) = None.
Proof.
  intros B k b1 b2 l1 l2 l3. unfold assemble. cbn [assign_ids].
  rewrite !map_app. cbn [map]. rewrite !map_app. cbn [map fst snd]. rewrite nodup_strs_dup. reflexivity.
Qed.
Print Assumptions c19_assembly_set_fails.

(* "every array of well-formed static policies assembles" is FALSE of the faithful model:
   witness = two policies in Cedar text; replayed on the implementation by vp/props/c19.py *)
Theorem c19_assembly_set_refuted :
  exists ps : list (bool * unit),
    (forall kb, In kb ps -> fst kb = false) /\ assemble (SetOf ps) = None.
Proof.
  exists [(false, tt); (false, tt)]. split.
  - intros kb [H|[H|[]]]; subst; reflexivity.
  - apply (c19_assembly_set_fails unit false tt tt [] [] []).
Qed.
Print Assumptions c19_assembly_set_refuted.

(* CLI authorize: 0 allow / 2 deny / 1 error, and the status determines the outcome *)
Theorem c19_exit_code :
  exit_code (authorize_exit AoAllow) = 0%N /\ exit_code (authorize_exit AoDeny) = 2%N /\
  exit_code (authorize_exit AoError) = 1%N /\
  (forall o1 o2, exit_code (authorize_exit o1) = exit_code (authorize_exit o2) -> o1 = o2).
Proof. repeat split. intros [] []; cbn; intros H; try reflexivity; discriminate H. Qed.
Print Assumptions c19_exit_code.

(* CLI validate: 1 iff the inputs could not be read, 3 iff validation failed (or warnings with
   --deny-warnings), 0 iff it passed *)
Theorem c19_exit_code_validate :
  forall dw o,
    (exit_code (validate_exit dw o) = 1%N <-> o = VoInputError) /\
    (exit_code (validate_exit dw o) = 3%N <->
       exists p w, o = VoResult p w /\ (p = false \/ (dw = true /\ w = true))) /\
    (exit_code (validate_exit dw o) = 0%N <->
       exists w, o = VoResult true w /\ (dw = false \/ w = false)).
Proof. exact exit_code_validate. Qed.
Print Assumptions c19_exit_code_validate.

(* non-vacuity: a history with re-registration, a failing registration and an unknown name,
   under a parser that accepts even numbers *)
Definition ex_parse (s : N) : option N := if N.even s then Some s else None.
Definition ex_auth (p : N) (s : option N) (c : N) : N * option N * N := (p, s, c).
Definition nA : cname := [65%N].
Definition nB : cname := [66%N].
Definition ex_h : list (op N N) :=
  [PreparsePset nA 2%N; PreparsePset nA 4%N; PreparsePset nA 5%N; PreparseSchema nB 8%N;
   StatefulAuth (Some nB) nA 7%N; StatefulAuth None nB 7%N; StatefulAuth (Some nA) nA 1%N].
Example c19_stateful_ex :
  trace N N N N _ ex_parse ex_parse ex_auth ex_h =
  [AParse true; AParse true; AParse false; AParse true;
   AAuth (4%N, Some 8%N, 7%N); ANotFound false true; ANotFound true false].
Proof. vm_compute. reflexivity. Qed.
Example c19_spec_ex :
  spec_of N N N N ex_parse ex_parse (firstn 4 ex_h) (Some nB) nA = SpecStateless _ 4%N (Some 8%N)
  /\ stateless N N N N _ ex_parse ex_parse ex_auth 4%N (Some 8%N) 7%N = SAuth _ (4%N, Some 8%N, 7%N).
Proof. vm_compute. split; reflexivity. Qed.
Example c19_ids_ex :
  map fst (assign_ids (Concatenated (repeat tt 12))) =
  map policy_id [0;1;2;3;4;5;6;7;8;9;10;11]%N
  /\ policy_id 11 = [112; 111; 108; 105; 99; 121; 49; 49]%N
  /\ assemble (SetOf [(false, tt); (false, tt)]) = None /\ assemble (SetOf [(false, tt)]) = Some [(policy_id 0, tt)]
  /\ assemble (SetOf [(true, tt); (false, tt)]) = Some [(json_policy_id, tt); (policy_id 0, tt)].
Proof. vm_compute. repeat split; reflexivity. Qed.
Example c19_exit_ex :
  exit_code (validate_exit false (VoResult false false)) = 3%N /\
  exit_code (validate_exit true (VoResult true true)) = 3%N /\
  exit_code (validate_exit false (VoResult true true)) = 0%N.
Proof. vm_compute. repeat split; reflexivity. Qed.
