(* C10 — entity / context JSON round trip; schema-directed parsing agrees with the escapes.

   Model: model/EntJson.v on model/JsonTree.v (transcribed from entities/json/value.rs, context.rs).
   Not proved (correspondence + implementation-level oracle only): that schema-directed parsing at the
   ENTITY level succeeds on conformant data and returns the same entity (dispatch on
   the schema's entity type, open entity shapes, tags) — hence the with-schema store round trip is
   proved only up to the parse step; open record types (unreachable from schemas today). *)
From Coq Require Import String.
Open Scope string_scope.
From Cedar Require Import EntJson BaseFacts EntJsonProofs.

(* serialise-then-parse (escape-directed, no schema) returns the value itself: exact equality,
   which implies the model's value equality *)
Theorem c10_value_rt : forall v j,
  wf_rval v = true -> value_to_json v = JOk j -> json_to_value None j = JOk v.
Proof. exact value_rt. Qed.
Print Assumptions c10_value_rt.

(* serialisation fails iff a record with a key __entity/__extn/__expr occurs in the value, and
   then with the reserved-key error *)
Theorem c10_reserved : forall v, calls_nonempty v = true ->
  ((exists e, value_to_json v = JErr e) <-> has_reserved v = true) /\
  (forall e, value_to_json v = JErr e -> e = EReservedKey).
Proof. exact reserved_iff. Qed.
Print Assumptions c10_reserved.

(* the same round trip for contexts, with no condition on the keys (Context::to_json_value refuses
   reserved top-level keys; finding C10:context_top_level_reserved_key in notes/C10.md) *)
Theorem c10_context_rt : forall pairs j,
  wf_rval (RRecord pairs) = true -> rval_evaluable (RRecord pairs) = true ->
  context_to_json pairs = JOk j -> context_from_json None j = JOk pairs.
Proof.
  intros pairs j Hwf Hev Hj. rewrite context_as_record in Hj.
  unfold context_from_json. rewrite (value_rt _ _ Hwf Hj). cbn [jbind]. rewrite Hev. reflexivity.
Qed.
Print Assumptions c10_context_rt.

(* a context is refused iff a reserved key occurs at the top level or below *)
Theorem c10_context_reserved : forall pairs, calls_nonempty (RRecord pairs) = true ->
  ((exists e, context_to_json pairs = JErr e) <-> has_reserved (RRecord pairs) = true).
Proof.
  intros pairs Hc. rewrite context_as_record. exact (proj1 (reserved_iff (RRecord pairs) Hc)).
Qed.
Print Assumptions c10_context_reserved.

(* entity (uid, attrs, tags, stored ancestors) -> JSON -> entity without schema returns the entity
   itself: same uid, attribute and tag values, ancestor list *)
Theorem c10_entity_rt : forall e j,
  wf_entity e = true -> entity_to_json e = JOk j -> entity_from_json None j = EOk e.
Proof. exact entity_rt. Qed.
Print Assumptions c10_entity_rt.

(* for every schema type built from bool/long/string/entity/extension, sets and CLOSED records
   (optional attributes present or absent), every JSON form `variant t v j` of a value v of type t
   — free per-node choice of {type,id} vs __entity, bare string vs {fn,arg} vs __extn, at any depth
   inside sets and records — parses under the type to v, and the explicit serialisation of v
   parses without a type to v as well *)
Theorem c10_implicit_explicit : forall t v j je,
  variant t v j -> wf_rval v = true -> value_to_json v = JOk je ->
  json_to_value (Some t) j = JOk v /\ json_to_value None je = JOk v.
Proof.
  intros t v j je Hv Hwf Hje. split; [exact (variant_parse t v j Hv) | exact (value_rt v je Hwf Hje)].
Qed.
Print Assumptions c10_implicit_explicit.

(* a store as Entities holds it (`store_ok`: well-formed entities, unique uids, ancestor lists
   transitively closed through the entities present, no entity its own ancestor) -> JSON -> store
   without schema: the same entities in the same order with the same uid, attributes, tags and the
   same ancestor SET (the closure recomputed by the parser adds nothing) *)
Theorem c10_store_rt : forall st j, store_ok st -> store_to_json st = JOk j ->
  exists st', store_from_json None [] j = SOk st' /\ Forall2 same_entity st st'.
Proof.
  intros st j (Hwf & Hdup & Hcl) Hj. apply jbind_ok in Hj as (js & E & Hj). injection Hj as <-.
  exists (map (reclose st) st). split.
  - unfold store_from_json. rewrite (entities_back st js Hwf E), Hdup, (close_store_closed st Hcl). reflexivity.
  - apply reclose_all. revert Hcl. apply Forall_impl. intros e [Hc _]. exact Hc.
Qed.
Print Assumptions c10_store_rt.

(* loading WITH a schema returns the closed document entities (minus those overridden by an
   equal-uid schema action) followed by exactly the schema's action entities: all of them are
   present and every other entity has a uid different from every schema action *)
Theorem c10_store_schema_actions : forall sch acts l st',
  store_from_json (Some sch) acts (JArr l) = SOk st' ->
  (exists es closed,
     emapM (entity_from_json (Some sch)) l = EOk es /\ close_store es = SOk closed /\
     st' = filter (fun e => negb (existsb (fun a => juid_eqb (je_uid e) (je_uid a)) acts)) closed ++ acts) /\
  incl acts st' /\
  (forall e, In e st' -> In e acts \/ (forall a, In a acts -> je_uid a <> je_uid e)).
Proof.
  intros sch acts l st' H. split; [exact (store_schema_actions sch acts l st' H)|].
  exact (store_schema_actions_in sch acts l st' H).
Qed.
Print Assumptions c10_store_schema_actions.

(* non-vacuity: a value with every constructor, odd record keys and a nested call is well formed,
   serialises, and comes back; a reserved key is refused *)
Definition ex_value : rval :=
  RRecord [ (s2str "type", RString (s2str "A")); (s2str "id", REntity (mkJuid (s2str "NS::T") (s2str "x y")))
          ; (s2str "", RSet [RLong i64_min; RSet []; RBool true])
          ; (s2str "fn", RCall (s2str "decimal") [RString (s2str "1.50")]) ].
Example ex_wf : wf_rval ex_value = true /\ calls_nonempty ex_value = true /\ has_reserved ex_value = false.
Proof. vm_compute. auto. Qed.
Example ex_rt : exists j, value_to_json ex_value = JOk j /\ json_to_value None j = JOk ex_value.
Proof.
  destruct (value_to_json ex_value) as [j|] eqn:E; [|vm_compute in E; discriminate].
  exists j. split; [reflexivity | exact (c10_value_rt ex_value j (proj1 ex_wf) E)].
Qed.
Example ex_refused :
  value_to_json (RSet [RRecord [(k_extn, RLong 1)]]) = JErr EReservedKey /\
  has_reserved (RSet [RRecord [(k_extn, RLong 1)]]) = true.
Proof. vm_compute. auto. Qed.
Example ex_context : exists j,
  context_to_json [(s2str "k", ex_value)] = JOk j /\ context_from_json None j = JOk [(s2str "k", ex_value)].
Proof.
  destruct (context_to_json [(s2str "k", ex_value)]) as [j|] eqn:E; [|vm_compute in E; discriminate].
  exists j. split; [reflexivity | apply c10_context_rt; [vm_compute; reflexivity ..| exact E]].
Qed.
Example ex_implicit_in_record :
  parse_ty (STRecord [(s2str "d", (STExt (s2str "decimal"), true)); (s2str "u", (STSet (STEntity (s2str "T")), false))] false)
           (JObj [(s2str "d", JStr (s2str "1.5")); (s2str "u", JArr [JObj [(k_type, JStr (s2str "T")); (k_id, JStr (s2str "a"))]])])
  = JOk (RRecord [(s2str "d", RCall (s2str "decimal") [RString (s2str "1.5")]);
                  (s2str "u", RSet [REntity (mkJuid (s2str "T") (s2str "a"))])]).
Proof. vm_compute. reflexivity. Qed.

(* a typed value with a nested set of entity references, an optional attribute left out, and three
   different spellings of extension values: it has the variant below, so c10_implicit_explicit applies *)
Definition ex_ty : sty :=
  STRecord [ (s2str "d", (STExt (s2str "decimal"), true)); (s2str "o", (STLong, false))
           ; (s2str "r", (STRecord [(s2str "ip", (STExt (s2str "ipaddr"), true))] false, true))
           ; (s2str "u", (STSet (STSet (STEntity (s2str "T"))), false)) ] false.
Definition ex_tv : rval :=
  RRecord [ (s2str "d", RCall (s2str "decimal") [RString (s2str "1.5")])
          ; (s2str "r", RRecord [(s2str "ip", RCall (s2str "ip") [RString (s2str "::1")])])
          ; (s2str "u", RSet [RSet [REntity (mkJuid (s2str "T") (s2str "a")); REntity (mkJuid (s2str "T") (s2str "b"))]; RSet []]) ].
Definition ex_tj : json :=
  JObj [ (s2str "d", JStr (s2str "1.5"))
       ; (s2str "r", JObj [(s2str "ip", JObj [(k_fn, JStr (s2str "ip")); (k_arg, JStr (s2str "::1"))])])
       ; (s2str "u", JArr [JArr [juid_json (mkJuid (s2str "T") (s2str "a"));
                                 JObj [(k_entity, juid_json (mkJuid (s2str "T") (s2str "b")))]]; JArr []]) ].
Example ex_variant : variant ex_ty ex_tv ex_tj.
Proof.
  unfold ex_ty, ex_tv, ex_tj. apply V_rec.
  - apply keys_nodup_NoDup. reflexivity.
  - apply RV_present. { apply V_ext_bare. left. reflexivity. }
    apply RV_absent. { reflexivity. }
    apply RV_present.
    { apply V_rec. { apply keys_nodup_NoDup. reflexivity. }
      apply RV_present. { apply V_ext_fnarg. right. left. reflexivity. } apply RV_nil. }
    apply RV_present.
    { apply V_set. constructor.
      - apply V_set. constructor. { apply V_ent_impl. reflexivity. }
        constructor. { apply V_ent_expl. reflexivity. } constructor.
      - constructor. { apply V_set. constructor. } constructor. }
    apply RV_nil.
Qed.
Example ex_variant_wf : wf_rval ex_tv = true /\ exists je, value_to_json ex_tv = JOk je.
Proof.
  split; [vm_compute; reflexivity|].
  let r := eval vm_compute in (value_to_json ex_tv) in match r with JOk ?x => exists x end.
  vm_compute. reflexivity.
Qed.

Definition ex_entity : jentity :=
  mkJentity (mkJuid (s2str "NS::T") (s2str "x y")) [(s2str "__entity", ex_value)]
            [(s2str "t", RCall (s2str "datetime") [RString (s2str "2024-01-01")])]
            [mkJuid (s2str "G") (s2str "g1"); mkJuid (s2str "G") (s2str "g2")].
Example ex_entity_wf : wf_entity ex_entity = true.
Proof. vm_compute. reflexivity. Qed.
Example ex_entity_rt : exists j, entity_to_json ex_entity = JOk j /\ entity_from_json None j = EOk ex_entity.
Proof.
  destruct (entity_to_json ex_entity) as [j|] eqn:E; [|vm_compute in E; discriminate].
  exists j. split; [reflexivity | exact (c10_entity_rt ex_entity j ex_entity_wf E)].
Qed.

(* a store with a two-step hierarchy (c < p < g, g absent): store_ok holds, it serialises and comes back *)
Definition ex_g : juid := mkJuid (s2str "G") (s2str "g").
Definition ex_p : jentity := mkJentity (mkJuid (s2str "G") (s2str "p")) [] [] [ex_g].
Definition ex_c : jentity := mkJentity (mkJuid (s2str "T") (s2str "c")) [(s2str "a", RLong 1)] [] [je_uid ex_p; ex_g].
Example ex_store_ok : store_ok [ex_c; ex_p].
Proof.
  split; [repeat constructor|]. split; [vm_compute; reflexivity|].
  assert (Hclosed : forall a, (a = je_anc ex_c \/ a = je_anc ex_p) -> closed_set [ex_c; ex_p] a).
  { intros a Ha p e' Hp Hf. destruct Ha as [->| ->]; cbn in Hp.
    - destruct Hp as [<-|[<-|[]]]; vm_compute in Hf; inversion Hf; subst; intros u Hu; cbn in *; tauto.
    - destruct Hp as [<-|[]]; vm_compute in Hf; inversion Hf. }
  constructor.
  - split; [apply Hclosed; auto|]. cbn. intros [H|[H|[]]]; discriminate.
  - constructor; [|constructor].
    split; [apply Hclosed; auto|]. cbn. intros [H|[]]; discriminate.
Qed.
Example ex_store_rt : exists j st', store_to_json [ex_c; ex_p] = JOk j /\ store_from_json None [] j = SOk st'.
Proof.
  destruct (store_to_json [ex_c; ex_p]) as [j|] eqn:E; [|vm_compute in E; discriminate].
  destruct (c10_store_rt _ j ex_store_ok E) as (st' & H & _). exists j, st'. split; [reflexivity | exact H].
Qed.
