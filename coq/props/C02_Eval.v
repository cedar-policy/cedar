(* C02 — expression evaluation follows the Cedar language semantics.
   `eval sl q es` is the model evaluator (model/Eval.v), transcribed from evaluator.rs. *)
From Coq Require Import Permutation.
From Cedar Require Import Like EvalProofs ValueProofs LikeProofs.

(* Short-circuiting: an error (or anything else) in a skipped operand never surfaces *)
Theorem c02_and_short_circuit :
  forall sl q es a b, eval sl q es a = Ok (VBool false) -> eval sl q es (And a b) = Ok (VBool false).
Proof. intros sl q es a b H. rewrite eval_and. apply branch_false, H. Qed.
Print Assumptions c02_and_short_circuit.

Theorem c02_or_short_circuit :
  forall sl q es a b, eval sl q es a = Ok (VBool true) -> eval sl q es (Or a b) = Ok (VBool true).
Proof. intros sl q es a b H. rewrite eval_or. apply branch_true, H. Qed.
Print Assumptions c02_or_short_circuit.

(* ... and a non-boolean or an error in an evaluated operand always does *)
Theorem c02_and_evaluated_operands :
  forall sl q es a b,
    (forall e, eval sl q es a = Err e -> eval sl q es (And a b) = Err e) /\
    (forall v, eval sl q es a = Ok v -> (forall x, v <> VBool x) -> eval sl q es (And a b) = Err ErrType) /\
    (eval sl q es a = Ok (VBool true) ->
     eval sl q es (And a b) = match eval sl q es b with
                              | Ok (VPrim (PBool y)) => Ok (VBool y)
                              | Ok _ => Err ErrType
                              | Err e => Err e
                              end).
Proof.
  intros sl q es a b. rewrite eval_and, as_boolean_cases. split; [|split].
  - intros e; apply branch_err.
  - intros v; apply branch_nonbool.
  - apply branch_true.
Qed.
Print Assumptions c02_and_evaluated_operands.

Theorem c02_or_evaluated_operands :
  forall sl q es a b,
    (forall e, eval sl q es a = Err e -> eval sl q es (Or a b) = Err e) /\
    (forall v, eval sl q es a = Ok v -> (forall x, v <> VBool x) -> eval sl q es (Or a b) = Err ErrType) /\
    (eval sl q es a = Ok (VBool false) ->
     eval sl q es (Or a b) = match eval sl q es b with
                             | Ok (VPrim (PBool y)) => Ok (VBool y)
                             | Ok _ => Err ErrType
                             | Err e => Err e
                             end).
Proof.
  intros sl q es a b. rewrite eval_or, as_boolean_cases. split; [|split].
  - intros e; apply branch_err.
  - intros v; apply branch_nonbool.
  - apply branch_false.
Qed.
Print Assumptions c02_or_evaluated_operands.

Theorem c02_if :
  forall sl q es c t f,
    (eval sl q es c = Ok (VBool true) -> eval sl q es (If c t f) = eval sl q es t) /\
    (eval sl q es c = Ok (VBool false) -> eval sl q es (If c t f) = eval sl q es f) /\
    (forall e, eval sl q es c = Err e -> eval sl q es (If c t f) = Err e) /\
    (forall v, eval sl q es c = Ok v -> (forall x, v <> VBool x) -> eval sl q es (If c t f) = Err ErrType).
Proof.
  intros sl q es c t f. rewrite eval_if. repeat split.
  - apply branch_true.
  - apply branch_false.
  - intros e; apply branch_err.
  - intros v; apply branch_nonbool.
Qed.
Print Assumptions c02_if.

(* Binary operators evaluate left to right and are strict in both operands *)
Theorem c02_binary_left_to_right :
  forall sl q es op a b,
    (forall e, eval sl q es a = Err e -> eval sl q es (BinApp op a b) = Err e) /\
    (forall va e, eval sl q es a = Ok va -> eval sl q es b = Err e -> eval sl q es (BinApp op a b) = Err e).
Proof.
  intros sl q es op a b. rewrite eval_binapp. split.
  - intros e ->; reflexivity.
  - intros va e -> ->; reflexivity.
Qed.
Print Assumptions c02_binary_left_to_right.

(* == is total across all types *)
Theorem c02_eq_total :
  forall sl q es a b va vb,
    eval sl q es a = Ok va -> eval sl q es b = Ok vb ->
    eval sl q es (BinApp BEq a b) = Ok (VBool (value_eqb va vb)).
Proof. intros sl q es a b va vb Ha Hb. rewrite (binapp_vals sl q es BEq a b va vb Ha Hb). reflexivity. Qed.
Print Assumptions c02_eq_total.

(* checked 64-bit arithmetic: the exact result, or an overflow error iff it is not representable *)
Theorem c02_arith_exact :
  forall sl q es op a b x y,
    (op = BAdd \/ op = BSub \/ op = BMul) ->
    eval sl q es a = Ok (VLong x) -> eval sl q es b = Ok (VLong y) ->
    eval sl q es (BinApp op a b) =
      if in_i64 (arith op x y) then Ok (VLong (arith op x y)) else Err ErrOverflow.
Proof. exact arith_exact. Qed.
Print Assumptions c02_arith_exact.

Theorem c02_neg_exact :
  forall sl q es a x,
    eval sl q es a = Ok (VLong x) ->
    eval sl q es (UnApp UNeg a) = if in_i64 (- x) then Ok (VLong (- x)) else Err ErrOverflow.
Proof. intros sl q es a x H. rewrite eval_unapp, H. reflexivity. Qed.
Print Assumptions c02_neg_exact.

Theorem c02_arith_type_error :
  forall sl q es op a b va vb,
    (op = BAdd \/ op = BSub \/ op = BMul) ->
    eval sl q es a = Ok va -> eval sl q es b = Ok vb ->
    (forall x, va <> VLong x) \/ (forall y, vb <> VLong y) ->
    eval sl q es (BinApp op a b) = Err ErrType.
Proof.
  intros sl q es op a b va vb Hop Ha Hb N. rewrite (binapp_vals sl q es op a b va vb Ha Hb).
  destruct Hop as [-> | [-> | ->]]; apply binary_arith_type_error, N.
Qed.
Print Assumptions c02_arith_type_error.

(* `in`: the entity itself or one of the ancestors its record lists (`member`), also against sets of
   entities; that the record lists every ancestor is the store's invariant, maintained by TC.v (C04) *)
Theorem c02_in_entity :
  forall sl q es e f u a,
    eval sl q es e = Ok (VEntity u) -> eval sl q es f = Ok (VEntity a) ->
    eval sl q es (BinApp BIn e f) = Ok (VBool (member es u a)).
Proof.
  intros sl q es e f u a He Hf. rewrite (binapp_vals sl q es BIn e f _ _ He Hf). apply eval_in_entity.
Qed.
Print Assumptions c02_in_entity.

Theorem c02_in_entity_set :
  forall sl q es e f u us,
    eval sl q es e = Ok (VEntity u) -> eval sl q es f = Ok (VSet (map VEntity us)) ->
    eval sl q es (BinApp BIn e f) = Ok (VBool (existsb (member es u) us)).
Proof.
  intros sl q es e f u us He Hf. rewrite (binapp_vals sl q es BIn e f _ _ He Hf). apply eval_in_entity_set.
Qed.
Print Assumptions c02_in_entity_set.

Theorem c02_in_set_with_nonentity :
  forall sl q es e f u l,
    eval sl q es e = Ok (VEntity u) -> eval sl q es f = Ok (VSet l) ->
    (exists v, In v l /\ forall x, v <> VEntity x) ->
    eval sl q es (BinApp BIn e f) = Err ErrType.
Proof.
  intros sl q es e f u l He Hf [v [Hin N]]. rewrite (binapp_vals sl q es BIn e f _ _ He Hf).
  apply (eval_in_set_nonentity es u l v Hin N).
Qed.
Print Assumptions c02_in_set_with_nonentity.

(* has / attribute access: `has` is false for absent entities, access is an error *)
Theorem c02_has_absent_entity :
  forall sl q es e u a,
    eval sl q es e = Ok (VEntity u) -> find_entity u es = None ->
    eval sl q es (HasAttr e a) = Ok (VBool false) /\ eval sl q es (GetAttr e a) = Err ErrEntityMissing.
Proof. intros sl q es e u a H N. rewrite eval_hasattr, eval_getattr, H. cbn. rewrite N. split; reflexivity. Qed.
Print Assumptions c02_has_absent_entity.

(* the hypothesis is not used: on other values neither side holds (EvalProofs.has_iff_get) *)
Theorem c02_has_iff_access_succeeds :
  forall sl q es e a,
    ((exists r, eval sl q es e = Ok (VRecord r)) \/ (exists u, eval sl q es e = Ok (VEntity u))) ->
    (eval sl q es (HasAttr e a) = Ok (VBool true) <-> exists v, eval sl q es (GetAttr e a) = Ok v).
Proof.
  intros sl q es e a _. apply has_iff_get.
Qed.
Print Assumptions c02_has_iff_access_succeeds.

Theorem c02_is :
  forall sl q es e u t,
    eval sl q es e = Ok (VEntity u) -> eval sl q es (Is e t) = Ok (VBool (name_eqb (uty u) t)).
Proof. intros sl q es e u t H. rewrite eval_is, H. reflexivity. Qed.
Print Assumptions c02_is.

(* `like`: wildcard matching over Unicode scalar values, `*` = any sequence *)
Theorem c02_like :
  forall sl q es e p s,
    eval sl q es e = Ok (VString s) ->
    exists b, eval sl q es (Like e p) = Ok (VBool b) /\ (b = true <-> Matches p s).
Proof.
  intros sl q es e p s H. exists (wildcard p s). rewrite eval_like, H. split; [reflexivity | apply wildcard_iff].
Qed.
Print Assumptions c02_like.

(* The implementation's matcher, a greedy two-pointer loop with a single backtrack point
   (Pattern::wildcard_match, transcribed as Like.wildcard_loop), computes the declarative matcher above. *)
Theorem c02_like_loop :
  forall p s, wildcard_loop p s = wildcard p s.
Proof. exact wildcard_loop_correct. Qed.
Print Assumptions c02_like_loop.

(* == is an equivalence relation on values ... *)
Theorem c02_eq_equivalence :
  (forall v, value_eqb v v = true) /\
  (forall a b, value_eqb a b = true -> value_eqb b a = true) /\
  (forall a b c, value_eqb a b = true -> value_eqb b c = true -> value_eqb a c = true).
Proof. exact (conj value_eqb_refl (conj value_eqb_sym value_eqb_trans)). Qed.
Print Assumptions c02_eq_equivalence.

(* ... under which two sets are == exactly when they have the same members: order and duplicates
   are unobservable *)
Theorem c02_set_eq_same_members :
  forall xs ys, value_eqb (VSet xs) (VSet ys) = true <-> forall v, set_mem v xs = set_mem v ys.
Proof. exact set_eq_iff_same_members. Qed.
Print Assumptions c02_set_eq_same_members.

Theorem c02_set_order_insensitive :
  forall xs ys, Permutation xs ys -> value_eqb (VSet xs) (VSet ys) = true.
Proof. intros xs ys P. apply set_eq_iff_same_members. intros v. apply existsb_perm, P. Qed.
Print Assumptions c02_set_order_insensitive.

Theorem c02_set_duplicate_insensitive :
  forall x xs, value_eqb (VSet (x :: x :: xs)) (VSet (x :: xs)) = true.
Proof.
  intros x xs. apply set_eq_iff_same_members. intros v. unfold set_mem. cbn [existsb].
  destruct (value_eqb v x); reflexivity.
Qed.
Print Assumptions c02_set_duplicate_insensitive.

(* contains / containsAll / containsAny / isEmpty = membership / inclusion / overlap / emptiness *)
Theorem c02_set_operations :
  forall sl q es a b s t v,
    eval sl q es a = Ok (VSet s) ->
    (eval sl q es b = Ok v -> eval sl q es (BinApp BContains a b) = Ok (VBool (set_mem v s))) /\
    (eval sl q es b = Ok (VSet t) ->
       exists r, eval sl q es (BinApp BContainsAll a b) = Ok (VBool r) /\
                 (r = true <-> forall x, set_mem x t = true -> set_mem x s = true)) /\
    (eval sl q es b = Ok (VSet t) ->
       exists r, eval sl q es (BinApp BContainsAny a b) = Ok (VBool r) /\
                 (r = true <-> exists x, set_mem x s = true /\ set_mem x t = true)) /\
    eval sl q es (UnApp UIsEmpty a) = Ok (VBool (match s with [] => true | _ => false end)).
Proof.
  intros sl q es a b s t v Ha. split; [|split; [|split]].
  - intros Hb. rewrite (binapp_vals sl q es BContains a b _ _ Ha Hb). reflexivity.
  - intros Hb. exists (set_subset t s). split.
    + rewrite (binapp_vals sl q es BContainsAll a b _ _ Ha Hb). reflexivity.
    + apply set_subset_spec.
  - intros Hb. exists (negb (set_disjoint s t)). split.
    + rewrite (binapp_vals sl q es BContainsAny a b _ _ Ha Hb). reflexivity.
    + rewrite Bool.negb_true_iff. apply set_disjoint_spec.
  - rewrite eval_unapp, Ha. reflexivity.
Qed.
Print Assumptions c02_set_operations.

(* set-valued operations cannot distinguish == sets *)
Theorem c02_set_mem_respects_eq :
  forall v v' xs ys,
    value_eqb v v' = true -> value_eqb (VSet xs) (VSet ys) = true -> set_mem v xs = set_mem v' ys.
Proof.
  intros v v' xs ys H1 H2. rewrite (set_mem_respects v v' xs H1). apply set_eq_iff_same_members, H2.
Qed.
Print Assumptions c02_set_mem_respects_eq.

Example c02_example_short_circuit :
  let u := mkUid [[65%N]] [97%N] in
  eval [] (mkRequest u u u []) []
    (And (Lit (PBool false)) (BinApp BAdd (Lit (PLong 1)) (Lit (PString [])))) = Ok (VBool false).
Proof. reflexivity. Qed.
Example c02_example_overflow :
  let u := mkUid [[65%N]] [97%N] in
  eval [] (mkRequest u u u []) [] (BinApp BAdd (Lit (PLong i64_max)) (Lit (PLong 1))) = Err ErrOverflow.
Proof. reflexivity. Qed.
Example c02_example_like : Matches [PChar 97%N; PStar; PChar 98%N] [97%N; 120%N; 121%N; 98%N].
Proof. apply wildcard_iff; reflexivity. Qed.
Example c02_example_sets :
  value_eqb (VSet [VLong 1; VLong 2; VLong 1]) (VSet [VLong 2; VLong 1]) = true /\
  value_eqb (VSet [VLong 1]) (VSet [VLong 1; VLong 3]) = false.
Proof. split; reflexivity. Qed.
Example c02_example_like_loop :
  wildcard_loop [PChar 97%N; PStar; PChar 98%N; PStar] [97%N; 98%N; 120%N; 98%N; 99%N] = true /\
  wildcard_loop [PStar; PChar 97%N] [97%N; 98%N] = false.
Proof. split; reflexivity. Qed.
