(* NoPanic.wildcard_indexed (usize indices, checked slice accesses) refines the suffix-level loop
   Like.wl, which LikeProofs proves equal to the declarative matcher. *)
From Coq Require Import Lia.
From Cedar Require Import NoPanic NoPanicProofs LikeProofs.

Lemma skipn_view {A} (l : list A) : forall i,
  match skipn i l with
  | [] => (List.length l <= i)%nat
  | x :: r => (i < List.length l)%nat /\ nth_error l i = Some x /\ skipn (S i) l = r
  end.
Proof.
  induction l as [|a l IH]; intros [|i]; cbn [skipn List.length nth_error]; try lia.
  - repeat split. lia.
  - specialize (IH i). destruct (skipn i l); [lia|].
    destruct IH as [H1 [H2 H3]]. repeat split; [lia|exact H2|exact H3].
Qed.

(* a slice read behind its bounds test is a case analysis on the suffix *)
Lemma idx_guarded {A B} (l : list A) j site (f : A -> pres B) (d : pres B) :
  (if Nat.ltb j (List.length l) then pbind (idx l j site) f else d) =
  match skipn j l with e :: _ => f e | [] => d end.
Proof.
  pose proof (skipn_view l j) as V. destruct (skipn j l) as [|e r].
  - rewrite (proj2 (Nat.ltb_ge _ _) V). reflexivity.
  - destruct V as [Hlt [Ee _]]. rewrite (proj2 (Nat.ltb_lt _ _) Hlt), (idx_some _ _ _ _ Ee). reflexivity.
Qed.

(* Like.wl's backtrack point, rebuilt from star_idx, tmp_idx and contains_star *)
Definition bt_of (pat : pattern) (text : str) (st : wstate) : option (pattern * str) :=
  if w_has st then Some (skipn (S (w_star st)) pat, skipn (w_tmp st) text) else None.

(* the loop invariant of wrun *)
Definition Rinv (pat : pattern) (text : str) (st : wstate) : Prop :=
  (w_i st <= List.length text)%nat /\ (w_j st <= List.length pat)%nat /\
  (w_has st = true -> (w_star st < List.length pat)%nat /\ (w_tmp st <= w_i st)%nat).

Lemma wskip_spec pat : forall fuel j, (List.length pat - j < fuel)%nat -> (j <= List.length pat)%nat ->
  wskip pat fuel j = POk (WDone (all_stars (skipn j pat))).
Proof.
  induction fuel as [|f IH]; intros j Hf Hj; [lia|]. cbn [wskip]. rewrite idx_guarded.
  pose proof (skipn_view pat j) as V. destruct (skipn j pat) as [|e p'].
  - replace j with (List.length pat) by lia. rewrite Nat.eqb_refl. reflexivity.
  - destruct V as [Hlt [_ <-]]. unfold all_stars. cbn [forallb]. destruct (is_star e); cbn [andb].
    + apply IH; lia.
    + rewrite (proj2 (Nat.eqb_neq _ _)) by lia. reflexivity.
Qed.

Definition step_of (pat : pattern) (text : str) (o : wout) : step :=
  match o with
  | WDone b => Done b
  | WRun st => Next (skipn (w_i st) text) (skipn (w_j st) pat) (bt_of pat text st)
  end.

Definition wsim (pat : pattern) (text : str) (o : wout) (spec : step) : Prop :=
  step_of pat text o = spec /\ match o with WRun st' => Rinv pat text st' | WDone _ => True end.

(* the `else` branches of wstep *)
Lemma wback_sim pat text i j star tmp has : Rinv pat text (mkW i j star tmp has) -> (i < List.length text)%nat ->
  exists o, (if has then POk (WRun (mkW (S tmp) (S star) star (S tmp) true)) else POk (WDone false)) = POk o /\
            wsim pat text o (backtrack (bt_of pat text (mkW i j star tmp has))).
Proof.
  intros [Hi [Hj Hh]] Hlt. unfold bt_of. cbn [w_i w_j w_star w_tmp w_has] in *.
  destruct has.
  - eexists. split; [reflexivity|].
    destruct (Hh eq_refl) as [Hstar Htmp]. unfold wsim, step_of, Rinv, bt_of.
    cbn [w_i w_j w_star w_tmp w_has backtrack].
    pose proof (skipn_view text tmp) as Vt. destruct (skipn tmp text) as [|c0 sb']; [lia|].
    destruct Vt as [_ [_ <-]]. split; [reflexivity|lia].
  - eexists. split; [reflexivity|]. split; [reflexivity|exact I].
Qed.

(* the case left out: a star that closes the pattern takes the rest of the text, and the loop exits *)
Lemma wl_step_cons c s' p bt : match bt with Some ([], _) => False | _ => True end ->
  wl_step (c :: s') p bt = advance c s' p bt.
Proof. destruct bt as [[[|e pb] sb]|]; [contradiction | reflexivity | reflexivity]. Qed.

Lemma wstep_sim pat text st : pat <> [] -> Rinv pat text st ->
  exists o, wstep pat text st = POk o /\
            wsim pat text o (wl_step (skipn (w_i st) text) (skipn (w_j st) pat) (bt_of pat text st)).
Proof.
  intros Hne HR. destruct st as [i j star tmp has].
  pose proof (wback_sim pat text i j star tmp has HR) as Hback.
  destruct HR as [Hi [Hj Hh]]. cbn [w_i w_j w_star w_tmp w_has] in *.
  assert (1 <= List.length pat)%nat as Hpl by (destruct pat; [congruence|cbn; lia]).
  unfold wstep. cbn [w_i w_j w_star w_tmp w_has]. rewrite psub_ok by exact Hpl. cbn [pbind]. rewrite !idx_guarded.
  pose proof (skipn_view text i) as Vs. destruct (skipn i text) as [|c s'] eqn:Es.
  { (* i = text_len *)
    rewrite (proj2 (Nat.ltb_ge _ _) Vs). cbn [andb]. rewrite wskip_spec by lia.
    eexists. split; [reflexivity|]. split; [reflexivity|exact I]. }
  destruct Vs as [Hlt [Ec Ss]]. specialize (Hback Hlt).
  rewrite (proj2 (Nat.ltb_lt _ _) Hlt), (idx_some _ _ _ _ Ec), <- Bool.negb_andb. cbn [andb].
  destruct (has && Nat.eqb star (List.length pat - 1)) eqn:Hlast; cbn [negb].
  { (* the star is the last pattern element: the loop exits *)
    apply andb_prop in Hlast. destruct Hlast as [-> Hlast]. apply Nat.eqb_eq in Hlast.
    rewrite wskip_spec by lia. eexists. split; [reflexivity|].
    unfold bt_of. cbn [w_has w_star w_tmp]. rewrite (@skipn_all2 _ (S star) pat) by lia. split; [reflexivity|exact I]. }
  rewrite wl_step_cons.
  2:{ unfold bt_of. cbn [w_has w_star w_tmp]. destruct has; [|exact I]. cbn [andb] in Hlast.
      apply Nat.eqb_neq in Hlast. destruct (Hh eq_refl) as [Hstar _].
      pose proof (skipn_view pat (S star)) as Vb. destruct (skipn (S star) pat); [lia|exact I]. }
  pose proof (skipn_view pat j) as Vp. destruct (skipn j pat) as [|[x|] p'] eqn:Ep; cbn [pbind is_star advance].
  - exact Hback.
  - destruct Vp as [Hjl [_ Sp]]. destruct (N.eqb x c); [|exact Hback].
    eexists. split; [reflexivity|]. unfold wsim, step_of, Rinv, bt_of. cbn [w_i w_j w_star w_tmp w_has]. rewrite Ss, Sp.
    split; [reflexivity|]. split; [lia|]. split; [lia|]. intros H. destruct (Hh H). lia.
  - destruct Vp as [Hjl [_ Sp]].
    eexists. split; [reflexivity|]. unfold wsim, step_of, Rinv, bt_of. cbn [w_i w_j w_star w_tmp w_has]. rewrite Es, Sp.
    split; [reflexivity|lia].
Qed.

Lemma wrun_sim pat text : pat <> [] -> forall fuel st, Rinv pat text st ->
  wrun fuel pat text st = POk (wl fuel (skipn (w_i st) text) (skipn (w_j st) pat) (bt_of pat text st)).
Proof.
  intros Hne. induction fuel as [|f IH]; intros st HR; [reflexivity|]. cbn [wrun].
  destruct (wstep_sim pat text st Hne HR) as [o [E [A HR']]]. rewrite E, wl_unfold, <- A. cbn [pbind].
  destruct o as [st'|b]; [apply IH, HR' | reflexivity].
Qed.

Theorem wildcard_indexed_refines : forall pat text, wildcard_indexed pat text = POk (Some (wildcard pat text)).
Proof.
  intros pat text. unfold wildcard_indexed. destruct pat as [|e pat']; [destruct text; reflexivity|].
  rewrite wrun_sim; [|discriminate|repeat split; cbn; try lia; discriminate].
  cbn [w_i w_j]. unfold bt_of. cbn [w_has skipn]. rewrite wl_decides. reflexivity.
Qed.
