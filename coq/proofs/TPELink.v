(* From the soundness of `interp` (TPESound) to the ORIGINAL policies: Residual::try_from_typed_expr keeps the
   meaning of the policy condition (reval_of_texpr), hence TPEProofs.policy_sound, which the lemmas of TPEProofs
   ask for, holds of every policy whose residual satisfies the side condition (policies_sound_tpe). *)
From Cedar Require Import TPE BaseFacts EvalProofs TExprInd TPEProofs TPESound.

Section Link.
Variable sl : slotenv.
Variable q : request.
Variable es : entities.

Notation RC := (reval call_ext q es).
Notation EV := (eval sl q es).

(* the loops local to of_texpr for the elements of a set or call and the fields of a record, under a name *)
Fixpoint of_texprs (l : list texpr) : option (list residual) :=
  match l with
  | [] => Some []
  | x :: l' => match of_texpr sl x, of_texprs l' with Some r, Some rs => Some (r :: rs) | _, _ => None end
  end.
Fixpoint of_fields (l : list (str * texpr)) : option (list (str * residual)) :=
  match l with
  | [] => Some []
  | (k, x) :: l' => match of_texpr sl x, of_fields l' with Some r, Some rs => Some ((k, r) :: rs) | _, _ => None end
  end.
Lemma of_ext fn args t : of_texpr sl (TEExtCall fn args t) = option_map (RExt fn) (of_texprs args).
Proof. reflexivity. Qed.
Lemma of_set items t : of_texpr sl (TESet items t) = option_map RSet (of_texprs items).
Proof. reflexivity. Qed.
Lemma of_record items t : of_texpr sl (TERecord items t) = option_map RRecord (of_fields items).
Proof. reflexivity. Qed.

Lemma of_texprs_sound l : Forall (fun x => forall r, of_texpr sl x = Some r -> RC r = EV (erase x)) l ->
  forall rs, of_texprs l = Some rs -> rlist call_ext q es rs = eval_list sl q es (map erase l).
Proof.
  induction 1 as [|x l Hx _ IH]; intros rs H; cbn [of_texprs] in H.
  - inversion H; reflexivity.
  - apply option_map2_some in H as [r [rs' [E [E' ->]]]].
    cbn [rlist map]. rewrite eval_list_cons, (Hx r E), (IH rs' E'). reflexivity.
Qed.
Lemma of_fields_sound l :
  Forall (fun kv => forall r, of_texpr sl (snd kv) = Some r -> RC r = EV (erase (snd kv))) l ->
  forall rs, of_fields l = Some rs ->
             rrec call_ext q es rs = eval_rec sl q es (map (fun kv => (fst kv, erase (snd kv))) l).
Proof.
  induction 1 as [|[k x] l Hx _ IH]; intros rs H; cbn [of_fields] in H.
  - inversion H; reflexivity.
  - apply (option_map2_some (fun r rs => (k, r) :: rs)) in H as [r [rs' [E [E' ->]]]].
    cbn [rrec map fst snd]. rewrite eval_rec_cons, (Hx r E), (IH rs' E'). reflexivity.
Qed.

(* both evaluators have the same equation at every node, and a node of the residual is built only when all of its
   operands were (option_map_some, option_map2_some) *)
Lemma reval_of_texpr te : forall r, of_texpr sl te = Some r -> RC r = EV (erase te).
Proof.
  induction te using texpr_ind'; intros r Hr.
  - cbn [of_texpr] in Hr. inversion Hr; reflexivity.
  - cbn [of_texpr] in Hr. inversion Hr; reflexivity.
  - cbn [of_texpr] in Hr. cbn [erase eval].
    destruct (slot_lookup s sl); [|discriminate]. inversion Hr; reflexivity.
  - cbn [of_texpr] in Hr. discriminate.
  - cbn [of_texpr] in Hr. destruct (of_texpr sl te1) as [c|]; [|discriminate].
    apply option_map2_some in Hr as [a [b [E2 [E3 ->]]]].
    cbn [reval erase]. rewrite eval_if, (IHte1 c eq_refl), (IHte2 a E2), (IHte3 b E3). reflexivity.
  - cbn [of_texpr] in Hr. apply option_map2_some in Hr as [a [b [E1 [E2 ->]]]].
    cbn [reval erase]. rewrite eval_and, (IHte1 a E1), (IHte2 b E2). reflexivity.
  - cbn [of_texpr] in Hr. apply option_map2_some in Hr as [a [b [E1 [E2 ->]]]].
    cbn [reval erase]. rewrite eval_or, (IHte1 a E1), (IHte2 b E2). reflexivity.
  - cbn [of_texpr] in Hr. apply option_map_some in Hr as [a [E ->]].
    cbn [reval erase]. rewrite eval_unapp, (IHte a E). reflexivity.
  - cbn [of_texpr] in Hr. apply option_map2_some in Hr as [a [b [E1 [E2 ->]]]].
    cbn [reval erase]. rewrite eval_binapp, (IHte1 a E1), (IHte2 b E2). reflexivity.
  - rewrite of_ext in Hr. apply option_map_some in Hr as [rs [E ->]].
    cbn [erase]. rewrite R_ext, eval_ext, (of_texprs_sound _ H rs E). reflexivity.
  - cbn [of_texpr] in Hr. apply option_map_some in Hr as [a [E ->]].
    cbn [reval erase]. rewrite eval_getattr, (IHte a E). reflexivity.
  - cbn [of_texpr] in Hr. apply option_map_some in Hr as [a [E ->]].
    cbn [reval erase]. rewrite eval_hasattr, (IHte a E). reflexivity.
  - cbn [of_texpr] in Hr. apply option_map_some in Hr as [a [E ->]].
    cbn [reval erase]. rewrite eval_like, (IHte a E). reflexivity.
  - cbn [of_texpr] in Hr. apply option_map_some in Hr as [a [E ->]].
    cbn [reval erase]. rewrite eval_is, (IHte a E). reflexivity.
  - rewrite of_set in Hr. apply option_map_some in Hr as [rs [E ->]].
    cbn [erase]. rewrite R_set, eval_set, (of_texprs_sound _ H rs E). reflexivity.
  - rewrite of_record in Hr. apply option_map_some in Hr as [rs [E ->]].
    cbn [erase]. rewrite R_record, eval_record, (of_fields_sound _ H rs E). reflexivity.
Qed.
End Link.

Definition annotates (tp : tpolicy) (p : policy) : Prop :=
  tp_id tp = pid p /\ tp_effect tp = peffect p /\ tp_env tp = penv p /\ erase (tp_cond tp) = pcondition p.

Definition policy_side (pq : prequest) (pes : pentities) (q : request) (es : entities) (tp : tpolicy) : Prop :=
  forall r0, of_texpr (tp_env tp) (tp_cond tp) = Some r0 -> Side call_ext pq pes q es r0.

Lemma same_class_bool (a b : res value) : sim a b ->
  same_class (outcome_of (do v <- a; as_bool v)) (outcome_of (do v <- b; as_bool v)).
Proof.
  destruct a as [x|e], b as [y|e']; cbn; try tauto.
  intros ->. destruct (as_bool y) as [[|]|]; cbn; exact I.
Qed.

Lemma policy_sound_tpe pq pes q es tp p rp :
  Completes pq pes q es -> annotates tp p -> policy_side pq pes q es tp ->
  tpe_policy call_ext pq pes tp = Some rp -> policy_sound call_ext q es p rp.
Proof.
  intros HC [Hi [He [Hv Hc]]] HS H. unfold tpe_policy in H.
  destruct (of_texpr (tp_env tp) (tp_cond tp)) as [r0|] eqn:E; [|discriminate]. inversion H; subst. clear H.
  unfold policy_sound; cbn [rp_id rp_effect rp_res]. repeat split; auto.
  unfold eval_policy, reval_policy. rewrite <- Hc, <- Hv.
  rewrite <- (reval_of_texpr (tp_env tp) q es (tp_cond tp) r0 E).
  apply same_class_bool. apply sim_sym. apply interp_sound; [exact HC|]. apply HS. exact E.
Qed.

Lemma policies_sound_tpe pq pes q es tps ps :
  Completes pq pes q es -> Forall2 annotates tps ps -> Forall (policy_side pq pes q es) tps ->
  forall rs, tpe call_ext pq pes tps = Some rs -> Forall2 (policy_sound call_ext q es) ps rs.
Proof.
  intros HC HA. induction HA as [|tp p tps ps Ha _ IH]; intros HS rs H; unfold tpe in *; cbn [omapM] in H.
  - inversion H; constructor.
  - inversion HS; subst. apply option_map2_some in H as [rp [rs' [E [E' ->]]]].
    constructor; [eapply policy_sound_tpe; eauto|]. apply IH; auto.
Qed.

Theorem query_sound_candidates pq pes fill hole es tps ps rs :
  (forall u, In u (map fst es) -> name_eqb (uty u) hole = true ->
             Completes pq pes (fill u) es /\ Forall (policy_side pq pes (fill u) es) tps) ->
  Forall2 annotates tps ps ->
  tpe call_ext pq pes tps = Some rs ->
  query call_ext fill hole rs es =
  filter (fun u => decision_eqb (rdecision (is_authorized ps (fill u) es)) Allow)
         (filter (fun u => name_eqb (uty u) hole) (map fst es)).
Proof.
  intros HC HA H. apply query_brute_candidates. intros u Hin Hty. destruct (HC u Hin Hty) as [C S].
  eapply policies_sound_tpe; eauto.
Qed.
