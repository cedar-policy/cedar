(* PolicySetRefine.v — refinement of the policy-set model to the abstract finite map
   id -> static body | template | link (template id, slot values)   (C08) *)
From Cedar Require Import PolicySet PolicySetWF.

Inductive aentry :=
| AStatic (t : template)
| ATemplate (t : template)
| ALink (tmpl : str) (env : slotenv).

Definition abs_of (s : pset) (i : str) : option aentry :=
  match alookup i (ps_links s) with
  | Some p => Some (match plink p with
                    | None => AStatic (ptemplate p)
                    | Some _ => ALink (tid (ptemplate p)) (penv p)
                    end)
  | None => match alookup i (ps_templates s) with
            | Some t => Some (ATemplate t)
            | None => None
            end
  end.

Definition aput (m : str -> option aentry) (k : str) (v : aentry) : str -> option aentry :=
  fun i => if str_eqb i k then Some v else m i.
Definition adel (m : str -> option aentry) (k : str) : str -> option aentry :=
  fun i => if str_eqb i k then None else m i.

Lemma abs_none s i : abs_of s i = None <-> (alookup i (ps_links s) = None /\ alookup i (ps_templates s) = None).
Proof.
  unfold abs_of. destruct (alookup i (ps_links s)); [split; [discriminate|intros [? _]; discriminate]|].
  destruct (alookup i (ps_templates s)); split; try discriminate; intuition discriminate.
Qed.

Lemma abs_template s i t :
  abs_of s i = Some (ATemplate t) <-> (alookup i (ps_links s) = None /\ alookup i (ps_templates s) = Some t).
Proof.
  unfold abs_of. destruct (alookup i (ps_links s)) as [p|].
  - split; [destruct (plink p); discriminate | intros [? _]; discriminate].
  - destruct (alookup i (ps_templates s)); split; try discriminate.
    + intros [= ->]. auto.
    + intros [_ [= ->]]. reflexivity.
    + intros [_ ?]. discriminate.
Qed.

Lemma add_static_refines s t s' :
  ps_add_static s t = OOk s' -> forall i, abs_of s' i = aput (abs_of s) (tid t) (AStatic t) i.
Proof.
  intros (_ & _ & ->)%ps_add_static_ok i. unfold abs_of, aput. cbn [ps_links ps_templates].
  rewrite !alookup_ainsert. destruct (str_eqb i (tid t)); reflexivity.
Qed.

Lemma add_static_ok_iff s t :
  (exists s', ps_add_static s t = OOk s') <-> abs_of s (tid t) = None.
Proof.
  rewrite abs_none. split.
  - intros [s' (ET & EL & _)%ps_add_static_ok]. auto.
  - intros [EL ET]. eexists. apply ps_add_static_ok. auto.
Qed.

Lemma add_template_refines s t s' :
  ps_add_template s t = OOk s' -> forall i, abs_of s' i = aput (abs_of s) (tid t) (ATemplate t) i.
Proof.
  intros (EL & _ & ->)%ps_add_template_ok i. unfold abs_of, aput. cbn [ps_links ps_templates].
  at_key i (tid t); [rewrite EL|]; reflexivity.
Qed.

Lemma add_template_ok_iff s t :
  (exists s', ps_add_template s t = OOk s') <-> abs_of s (tid t) = None.
Proof.
  rewrite abs_none. split.
  - intros [s' (EL & ET & _)%ps_add_template_ok]. auto.
  - intros [EL ET]. eexists. apply ps_add_template_ok. auto.
Qed.

Lemma link_refines s tmpl new env s' :
  WF s -> ps_link s tmpl new env = OOk s' -> forall i, abs_of s' i = aput (abs_of s) new (ALink tmpl env) i.
Proof.
  intros W (t & ET & _ & _ & _ & _ & ->)%ps_link_ok i. unfold abs_of, aput. cbn [ps_links ps_templates].
  rewrite alookup_ainsert. destruct (str_eqb i new); [|reflexivity]. cbn. rewrite (wf_tid _ W _ _ ET). reflexivity.
Qed.

(* for a slot-less template, ps_link's test that it is not the body of a present static policy says that
   the abstract entry is ATemplate and not AStatic *)
Lemma link_ok_iff s tmpl new env :
  WF s ->
  ((exists s', ps_link s tmpl new env = OOk s') <->
   (exists t, abs_of s tmpl = Some (ATemplate t) /\ check_binding t env = true /\ abs_of s new = None)).
Proof.
  intros W. split.
  - intros [s' (t & ET & NS & EB & EL & EN & _)%ps_link_ok]. exists t. rewrite abs_template, abs_none.
    destruct (alookup tmpl (ps_links s)) as [p|] eqn:EP; [exfalso | auto].
    destruct (WF_shared_id _ _ _ _ W EP ET) as [Hs ->]. destruct (wf_link _ W _ _ EP) as (_ & _ & G).
    unfold amem in NS. rewrite EP, (good_static _ G Hs) in NS. discriminate NS.
  - intros (t & [EP ET]%abs_template & EB & [EL EN]%abs_none). eexists. apply ps_link_ok. exists t.
    repeat split; try assumption. unfold amem. rewrite EP. apply Bool.andb_false_r.
Qed.

Lemma unlink_refines s i s' p :
  ps_unlink s i = OOk (s', p) -> forall j, abs_of s' j = adel (abs_of s) i j.
Proof.
  intros (ET & _ & l & _ & ->)%ps_unlink_ok j. unfold abs_of, adel. cbn [ps_links ps_templates].
  at_key j i; [rewrite ET|]; reflexivity.
Qed.

Lemma unlink_ok_iff s i :
  WF s -> ((exists r, ps_unlink s i = OOk r) <-> (exists t e, abs_of s i = Some (ALink t e))).
Proof.
  intros W. unfold abs_of. split.
  - intros [[s' p] (ET & EL & _)%ps_unlink_ok]. rewrite EL. destruct (plink p) eqn:Ep; [eauto|].
    pose proof (WF_static_template _ _ _ W EL Ep). congruence.
  - intros (t & e & H).
    destruct (alookup i (ps_links s)) as [p|] eqn:EL; [|destruct (alookup i (ps_templates s)); discriminate].
    destruct (plink p) eqn:Ep; [|discriminate]. destruct (wf_link _ W _ _ EL) as (_ & B & _).
    destruct (alookup (tid (ptemplate p)) (ps_t2l s)) as [l|] eqn:EM.
    + eexists (_, p). apply ps_unlink_ok. repeat split; [|exact EL|eauto].
      destruct (alookup i (ps_templates s)) eqn:ET; [|reflexivity].
      assert (X : plink p = None) by (apply (wf_disj _ W _ _ EL); congruence). congruence.
    + apply (wf_t2l_dom _ W) in EM. congruence.
Qed.

Lemma remove_static_refines s i s' p :
  ps_remove_static s i = OOk (s', p) -> forall j, abs_of s' j = adel (abs_of s) i j.
Proof.
  intros (_ & _ & ->)%ps_remove_static_ok j. unfold abs_of, adel. cbn [ps_links ps_templates].
  rewrite !alookup_aremove. destruct (str_eqb j i); reflexivity.
Qed.

Lemma remove_static_ok_iff s i :
  WF s -> ((exists r, ps_remove_static s i = OOk r) <-> (exists t, abs_of s i = Some (AStatic t))).
Proof.
  intros W. unfold abs_of. split.
  - intros [[s' p] (EL & ET & _)%ps_remove_static_ok]. rewrite EL, (wf_disj _ W _ _ EL ET). eauto.
  - intros [t H].
    destruct (alookup i (ps_links s)) as [p|] eqn:EL; [|destruct (alookup i (ps_templates s)); discriminate].
    destruct (plink p) eqn:Ep; [discriminate|].
    eexists (_, p). apply ps_remove_static_ok. repeat split; [exact EL|].
    rewrite (WF_static_template _ _ _ W EL Ep). discriminate.
Qed.

Lemma remove_template_refines s i s' :
  ps_remove_template s i = OOk s' -> forall j, abs_of s' j = adel (abs_of s) i j.
Proof.
  intros (EL & _ & _ & ->)%ps_remove_template_ok j. unfold abs_of, adel. cbn [ps_links ps_templates].
  at_key j i; [rewrite EL|]; reflexivity.
Qed.

Lemma remove_template_ok_iff s i :
  WF s ->
  ((exists s', ps_remove_template s i = OOk s') <->
   ((exists t, abs_of s i = Some (ATemplate t)) /\ forall j e, abs_of s j <> Some (ALink i e))).
Proof.
  intros W. split.
  - intros [s' (EL & EM & ET & _)%ps_remove_template_ok]. split.
    + destruct (alookup i (ps_templates s)) as [t|] eqn:E; [|contradiction]. exists t. apply abs_template. auto.
    + intros j e HA. unfold abs_of in HA.
      destruct (alookup j (ps_links s)) as [p|] eqn:EJ; [|destruct (alookup j (ps_templates s)); discriminate].
      destruct (plink p); [|discriminate]. injection HA as Ht _.
      exact (proj2 (wf_t2l _ W _ _ j EM) (ex_intro _ p (conj EJ Ht))).
  - intros [[t [EL ET]%abs_template] HN]. destruct (alookup i (ps_t2l s)) as [[|j ids]|] eqn:EM.
    + eexists. apply ps_remove_template_ok. repeat split; [exact EL | exact EM | congruence].
    + exfalso. destruct (proj1 (wf_t2l _ W _ _ j EM) (or_introl eq_refl)) as (p & EJ & Ht).
      destruct (plink p) eqn:Ep.
      * apply (HN j (penv p)). unfold abs_of. rewrite EJ, Ep, Ht. reflexivity.
      * rewrite (WF_static_tid _ _ _ W EJ Ep) in Ht. congruence.
    + apply (wf_t2l_dom _ W) in EM. congruence.
Qed.

(* merge, the two result-class facts: both are read off the last match of ps_merge, whatever the
   renaming passes before it computed.  `ps_merge a b false` unfolds to a match of the shape below;
   destructing the renaming inside the unfolded ps_merge is slow to check *)
Lemma merge_match_false {X} (r : renaming) (x : X) y r' :
  match false, r with false, _ :: _ => OErr EOccupied | _, _ => OOk (x, r) end = OOk (y, r') -> r' = [].
Proof. destruct r; [intros [= _ <-]; reflexivity | discriminate]. Qed.

Lemma ps_merge_norename a b s' r : ps_merge a b false = OOk (s', r) -> r = [].
Proof. unfold ps_merge. exact (merge_match_false _ _ _ _). Qed.

Lemma ps_merge_rename_total a b : exists s' r, ps_merge a b true = OOk (s', r).
Proof. destruct (ps_merge a b true) as [[s' r]|e] eqn:E; [eauto | discriminate E]. Qed.
