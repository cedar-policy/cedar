(* Soundness of tpe::Evaluator::interpret (model: TPE.interp): on a request and store that complete the partial
   ones, the interpreted residual evaluates like the original. *)
From Cedar Require Import TPE BaseFacts.

(* Both sides produce the same value, or both produce an error (the class of an error is not preserved:
   Residual::Error carries none). *)
Definition sim {A} (a b : res A) : Prop :=
  match a, b with Ok x, Ok y => x = y | Err _, Err _ => True | _, _ => False end.

Lemma sim_refl {A} (a : res A) : sim a a.
Proof. destruct a; cbn; auto. Qed.
Lemma sim_trans {A} (a b c : res A) : sim a b -> sim b c -> sim a c.
Proof. destruct a, b, c; cbn; try tauto; congruence. Qed.
Lemma sim_sym {A} (a b : res A) : sim a b -> sim b a.
Proof. destruct a, b; cbn; auto. Qed.
Lemma sim_bind {A B} (a b : res A) (f g : A -> res B) :
  sim a b -> (forall v, sim (f v) (g v)) -> sim (bind a f) (bind b g).
Proof. destruct a, b; cbn; try tauto. intros ->; auto. Qed.
Lemma sim_bind_l {A B} (a b : res A) (f : A -> res B) : sim a b -> sim (bind a f) (bind b f).
Proof. intros H. apply sim_bind; [exact H|]. intros v. apply sim_refl. Qed.
Lemma sim_errs {A} e e' : sim (Err e : res A) (Err e').
Proof. exact I. Qed.
Lemma sim_ok_l {A} (v : A) b : sim (Ok v) b -> b = Ok v.
Proof. destruct b; cbn; [congruence|tauto]. Qed.
Lemma sim_err_l {A} e (b : res A) : sim (Err e) b -> exists e', b = Err e'.
Proof. destruct b; cbn; [tauto|eauto]. Qed.

Lemma shape_val r v : shape r = SVal v -> r = RVal v.
Proof. destruct r; cbn; congruence. Qed.
Lemma shape_err r : shape r = SErr -> r = RErr.
Proof. destruct r; cbn; congruence. Qed.

Lemma existsb_false {A} (l : list A) : existsb (fun _ => false) l = false.
Proof. induction l; cbn; auto. Qed.

(* The consistency relation of PartialRequest / PartialEntities::check_consistency, with the known attributes /
   tags / context IDENTICAL to the concrete ones (Rust compares canonical `Value`s, for which equality is identity)
   and the known ancestor set equal as a set. *)
Record Completes (pq : prequest) (pes : pentities) (q : request) (es : entities) : Prop := mkCompletes {
  c_pty : uty (rprincipal q) = pq_pty pq;
  c_pid : forall i, pq_pid pq = Some i -> ueid (rprincipal q) = i;
  c_rty : uty (rresource q) = pq_rty pq;
  c_rid : forall i, pq_rid pq = Some i -> ueid (rresource q) = i;
  c_act : raction q = pq_action pq;
  c_ctx : forall c, pq_ctx pq = Some c -> rcontext q = c;
  c_ents : forall u pe, find_pentity u pes = Some pe ->
           exists d, find_entity u es = Some d /\
                     (forall a, pe_attrs pe = Some a -> eattrs d = a) /\
                     (forall n, pe_anc pe = Some n ->
                                forall x, existsb (uid_eqb x) (eancestors d) = existsb (uid_eqb x) n) /\
                     (forall t, pe_tags pe = Some t -> etags d = t)
}.

Section ResInd.
  Variable P : residual -> Prop.
  Hypothesis HVal : forall v, P (RVal v).
  Hypothesis HErr : P RErr.
  Hypothesis HVar : forall v, P (RVar v).
  Hypothesis HIf : forall c a b, P c -> P a -> P b -> P (RIf c a b).
  Hypothesis HAnd : forall a b, P a -> P b -> P (RAnd a b).
  Hypothesis HOr : forall a b, P a -> P b -> P (ROr a b).
  Hypothesis HUn : forall op a, P a -> P (RUn op a).
  Hypothesis HBin : forall op a b, P a -> P b -> P (RBin op a b).
  Hypothesis HExt : forall fn args, Forall P args -> P (RExt fn args).
  Hypothesis HGet : forall e k, P e -> P (RGetAttr e k).
  Hypothesis HHas : forall e k, P e -> P (RHasAttr e k).
  Hypothesis HLike : forall e p, P e -> P (RLike e p).
  Hypothesis HIs : forall e t, P e -> P (RIs e t).
  Hypothesis HSet : forall items, Forall P items -> P (RSet items).
  Hypothesis HRec : forall items, Forall (fun kv => P (snd kv)) items -> P (RRecord items).

  Fixpoint residual_ind' (r : residual) : P r :=
    match r with
    | RVal v => HVal v
    | RErr => HErr
    | RVar v => HVar v
    | RIf c a b => HIf c a b (residual_ind' c) (residual_ind' a) (residual_ind' b)
    | RAnd a b => HAnd a b (residual_ind' a) (residual_ind' b)
    | ROr a b => HOr a b (residual_ind' a) (residual_ind' b)
    | RUn op a => HUn op a (residual_ind' a)
    | RBin op a b => HBin op a b (residual_ind' a) (residual_ind' b)
    | RExt fn args => HExt fn args (Forall_all residual_ind' args)
    | RGetAttr e k => HGet e k (residual_ind' e)
    | RHasAttr e k => HHas e k (residual_ind' e)
    | RLike e p => HLike e p (residual_ind' e)
    | RIs e t => HIs e t (residual_ind' e)
    | RSet items => HSet items (Forall_all residual_ind' items)
    | RRecord items => HRec items (Forall_all (fun kv => residual_ind' (snd kv)) items)
    end.
End ResInd.

Lemma val_of_val r v : val_of r = Some v -> r = RVal v.
Proof. destruct r; cbn; congruence. Qed.
Lemma is_err_err r : is_err r = true -> r = RErr.
Proof. destruct r; cbn; congruence. Qed.

(* An operand after interpretation, beside what the original evaluates to: its value, an error where it errors,
   or still partial.  Every arm of `interp` that looks at the shape of an operand starts with this case split. *)
Inductive operand (r' : residual) (x : res value) : rshape -> Prop :=
| operand_val v : r' = RVal v -> x = Ok v -> operand r' x (SVal v)
| operand_err e : r' = RErr -> x = Err e -> operand r' x SErr
| operand_partial : operand r' x SPartial.

Section Sound.
Variable cx : name -> list value -> res value.
Variable pq : prequest.
Variable pes : pentities.
Variable q : request.
Variable es : entities.
Hypothesis HC : Completes pq pes q es.

Notation I := (interp cx pq pes).
Notation R := (reval cx q es).

Lemma operand_shape r' x : sim (R r') x -> operand r' x (shape r').
Proof.
  intros H. destruct (shape r') as [v| |] eqn:Sh.
  - apply shape_val in Sh. subst r'. exact (operand_val _ _ v eq_refl (sim_ok_l _ _ H)).
  - apply shape_err in Sh. subst r'. destruct (sim_err_l _ _ H) as [e He]. exact (operand_err _ _ e eq_refl He).
  - apply operand_partial.
Qed.

Lemma of_res_sim x : sim (R (of_res x)) x.
Proof. destruct x; cbn; auto. Qed.

Lemma known_attrs u attrs : get_attrs pes u = Some attrs ->
  exists d, find_entity u es = Some d /\ eattrs d = attrs.
Proof.
  unfold get_attrs. destruct (find_pentity u pes) as [pe|] eqn:F; [|discriminate]. intros A.
  destruct (c_ents _ _ _ _ HC u pe F) as [d [Hd [Ha _]]]. exists d. split; [exact Hd|exact (Ha _ A)].
Qed.
Lemma known_ancestors u anc : get_ancestors pes u = Some anc ->
  exists d, find_entity u es = Some d /\ forall x, is_descendant_of d x = existsb (uid_eqb x) anc.
Proof.
  unfold get_ancestors. destruct (find_pentity u pes) as [pe|] eqn:F; [|discriminate]. intros A.
  destruct (c_ents _ _ _ _ HC u pe F) as [d [Hd [_ [Hn _]]]]. exists d. split; [exact Hd|exact (Hn _ A)].
Qed.
Lemma known_tags u tags : get_tags pes u = Some tags ->
  exists d, find_entity u es = Some d /\ etags d = tags.
Proof.
  unfold get_tags. destruct (find_pentity u pes) as [pe|] eqn:F; [|discriminate]. intros A.
  destruct (c_ents _ _ _ _ HC u pe F) as [d [Hd [_ [_ Ht]]]]. exists d. split; [exact Hd|exact (Ht _ A)].
Qed.

Lemma sound_var v : sim (R (I (RVar v))) (R (RVar v)).
Proof.
  destruct v; cbn [interp].
  - destruct (pq_pid pq) as [i|] eqn:E; [|apply sim_refl].
    cbn. rewrite <- (c_pty _ _ _ _ HC), <- (c_pid _ _ _ _ HC i E). destruct (rprincipal q); reflexivity.
  - cbn. rewrite (c_act _ _ _ _ HC). reflexivity.
  - destruct (pq_rid pq) as [i|] eqn:E; [|apply sim_refl].
    cbn. rewrite <- (c_rty _ _ _ _ HC), <- (c_rid _ _ _ _ HC i E). destruct (rresource q); reflexivity.
  - destruct (pq_ctx pq) as [c|] eqn:E; [|apply sim_refl]. cbn. rewrite (c_ctx _ _ _ _ HC c E). reflexivity.
Qed.

Lemma bin_cong op a a' b b' : sim (R a') (R a) -> sim (R b') (R b) -> sim (R (RBin op a' b')) (R (RBin op a b)).
Proof.
  intros Ha Hb. cbn [reval]. apply sim_bind; [exact Ha|]. intros v. apply sim_bind_l, Hb.
Qed.

Lemma sound_if c a b : sim (R (I c)) (R c) -> sim (R (I a)) (R a) -> sim (R (I b)) (R b) ->
  sim (R (I (RIf c a b))) (R (RIf c a b)).
Proof.
  intros Hc Ha Hb. cbn [interp]. destruct (operand_shape _ _ Hc) as [v _ Ec|e _ Ec|].
  - cbn [reval]. rewrite Ec. cbn [bind]. destruct (as_bool v) as [[|]|]; [exact Ha|exact Hb|apply sim_errs].
  - cbn [reval]. rewrite Ec. apply sim_errs.
  - cbn [reval]. apply sim_bind; [exact Hc|]. intros v. destruct (as_bool v) as [[|]|]; cbn; auto.
Qed.

Lemma sound_un op a : sim (R (I a)) (R a) -> sim (R (I (RUn op a))) (R (RUn op a)).
Proof.
  intros Ha. cbn [interp reval]. destruct (operand_shape _ _ Ha) as [v _ ->|e _ ->|].
  - apply of_res_sim.
  - apply sim_errs.
  - exact (sim_bind_l _ _ _ Ha).
Qed.

Lemma sound_like e p : sim (R (I e)) (R e) -> sim (R (I (RLike e p))) (R (RLike e p)).
Proof.
  intros He. cbn [interp reval]. destruct (operand_shape _ _ He) as [v _ ->|e0 _ ->|].
  - cbn [bind]. destruct (as_string v); cbn; auto.
  - apply sim_errs.
  - exact (sim_bind_l _ _ _ He).
Qed.

Lemma is_unknown_sound t e' e : sim (R e') (R e) ->
  sim (R match e' with
         | RVar Principal => RVal (VBool (name_eqb t (pq_pty pq)))
         | RVar Resource => RVal (VBool (name_eqb t (pq_rty pq)))
         | _ => RIs e' t
         end)
      (R (RIs e t)).
Proof.
  intros H. assert (Kept : sim (R (RIs e' t)) (R (RIs e t))) by exact (sim_bind_l _ _ _ H).
  (* only `principal is t` and `resource is t` are answered, from the types in the partial request *)
  destruct e' as [ | |[ | | | ]| | | | | | | | | | | | ]; try exact Kept.
  - apply sim_ok_l in H. cbn [reval]. rewrite H. cbn. rewrite (c_pty _ _ _ _ HC), name_eqb_sym. reflexivity.
  - apply sim_ok_l in H. cbn [reval]. rewrite H. cbn. rewrite (c_rty _ _ _ _ HC), name_eqb_sym. reflexivity.
Qed.

Lemma sound_is e t : sim (R (I e)) (R e) -> sim (R (I (RIs e t))) (R (RIs e t)).
Proof.
  intros He. cbn [interp]. destruct (operand_shape _ _ He) as [v _ Ev|e0 _ Ev|].
  - cbn [reval]. rewrite Ev. cbn [bind]. destruct (as_entity v); cbn; auto.
  - cbn [reval]. rewrite Ev. apply sim_errs.
  - apply is_unknown_sound, He.
Qed.

(* A predicate on residuals; TypecheckProofs.boolish is another thing, a boolean test on expressions. *)
Definition boolish (r : residual) : Prop := forall v, R r = Ok v -> exists y, v = VBool y.

(* && and || are one connective `sc s`, where s is the value of an operand that decides the result whatever the
   other operand is: false for &&, true for ||.  The three equations say so for the evaluator, for `interp` and for
   `and_right` / `or_right`. *)
Definition sc (s : bool) : residual -> residual -> residual := if s then ROr else RAnd.
Definition sc_right (s : bool) : residual -> residual -> residual := if s then or_right else and_right.

Lemma R_sc s a b : R (sc s a b) =
  do va <- R a; do x <- as_bool va;
  if Bool.eqb x s then Ok (VBool s) else (do vb <- R b; do y <- as_bool vb; Ok (VBool y)).
Proof.
  destruct s; cbn [sc reval]; destruct (R a) as [va|]; cbn [bind]; try reflexivity;
    destruct (as_bool va) as [[|]|]; reflexivity.
Qed.

Lemma I_sc s a b : I (sc s a b) =
  match shape (I a) with
  | SVal v => match as_bool v with
              | Ok x => if Bool.eqb x s then RVal (VBool s) else I b
              | Err _ => RErr
              end
  | SErr => RErr
  | SPartial => sc_right s (I a) (I b)
  end.
Proof.
  destruct s; cbn [sc interp]; destruct (shape (I a)) as [v| |]; try reflexivity;
    destruct (as_bool v) as [[|]|]; reflexivity.
Qed.

Lemma sc_right_eq s l r' : sc_right s l r' =
  match shape r' with
  | SVal v => match as_bool v with
              | Ok y => if Bool.eqb y s
                        then (if negb (can_error l) then RVal (VBool s) else sc s l (RVal (VBool s)))
                        else l
              | Err _ => sc s l RErr
              end
  | _ => sc s l r'
  end.
Proof.
  destruct s; unfold sc_right, sc, and_right, or_right; destruct (shape r') as [v| |]; try reflexivity;
    destruct (as_bool v) as [[|]|]; reflexivity.
Qed.

Lemma eq_or_negb (s x : bool) : x = s \/ x = negb s.
Proof. destruct s, x; auto. Qed.

Lemma sc_cong s a a' b b' : sim (R a') (R a) -> sim (R b') (R b) -> sim (R (sc s a' b')) (R (sc s a b)).
Proof.
  intros Ha Hb. rewrite !R_sc. apply sim_bind; [exact Ha|]. intros v.
  destruct (as_bool v) as [x|]; cbn [bind]; [|apply sim_errs].
  destruct (Bool.eqb x s); [apply sim_refl|apply sim_bind_l, Hb].
Qed.

Lemma sc_decided_l s a b : R a = Ok (VBool s) -> R (sc s a b) = Ok (VBool s).
Proof. intros Ea. rewrite R_sc, Ea. cbn [bind as_bool VBool]. rewrite Bool.eqb_reflx. reflexivity. Qed.
Lemma sc_skip_l s a b : boolish b -> R a = Ok (VBool (negb s)) -> R (sc s a b) = R b.
Proof.
  intros Bb Ea. rewrite R_sc, Ea. cbn [bind as_bool VBool]. rewrite Bool.eqb_negb1.
  destruct (R b) as [vb|] eqn:Eb; [|reflexivity]. destruct (Bb vb Eb) as [y ->]. reflexivity.
Qed.
Lemma sc_skip_r s a b : boolish a -> R b = Ok (VBool (negb s)) -> R (sc s a b) = R a.
Proof.
  intros Ba Eb. rewrite R_sc, Eb.
  destruct (R a) as [va|] eqn:Ea; [|reflexivity]. destruct (Ba va Ea) as [x ->]. destruct x, s; reflexivity.
Qed.
(* the left operand is dropped only when it does not error *)
Lemma sc_decided_r s a b : boolish a -> (forall e, R a <> Err e) -> R b = Ok (VBool s) ->
  R (sc s a b) = Ok (VBool s).
Proof.
  intros Ba Hn Eb. rewrite R_sc, Eb.
  destruct (R a) as [va|ea] eqn:Ea; [|destruct (Hn ea eq_refl)].
  destruct (Ba va Ea) as [x ->]. destruct x, s; reflexivity.
Qed.

Lemma sc_right_sound s l a b :
  sim (R l) (R a) -> sim (R (I b)) (R b) -> boolish a -> boolish b ->
  (can_error l = false -> forall e, R a <> Err e) ->
  sim (R (sc_right s l (I b))) (R (sc s a b)).
Proof.
  intros Hl Hb Ba Bb Hn. rewrite sc_right_eq.
  destruct (operand_shape _ _ Hb) as [v _ Eb| |]; [|apply sc_cong; assumption..].
  destruct (Bb v Eb) as [y ->]; cbn [as_bool VBool].
  destruct (eq_or_negb s y) as [-> | ->].
  - rewrite Bool.eqb_reflx. destruct (can_error l) eqn:Ce; cbn [negb].
    + apply sc_cong; [exact Hl|]. rewrite Eb. apply sim_refl.
    + rewrite (sc_decided_r s a b Ba (Hn eq_refl) Eb). reflexivity.
  - rewrite Bool.eqb_negb1, (sc_skip_r s a b Ba Eb). exact Hl.
Qed.

Lemma sound_sc s a b :
  sim (R (I a)) (R a) -> sim (R (I b)) (R b) -> boolish a -> boolish b ->
  (can_error (I a) = false -> forall e, R a <> Err e) ->
  sim (R (I (sc s a b))) (R (sc s a b)).
Proof.
  intros Ha Hb Ba Bb Hn. rewrite I_sc. destruct (operand_shape _ _ Ha) as [v _ Ea|e _ Ea|].
  - destruct (Ba v Ea) as [x ->]; cbn [as_bool VBool]. destruct (eq_or_negb s x) as [-> | ->].
    + rewrite Bool.eqb_reflx, (sc_decided_l s a b Ea). reflexivity.
    + rewrite Bool.eqb_negb1, (sc_skip_l s a b Bb Ea). exact Hb.
  - rewrite R_sc, Ea. apply sim_errs.
  - apply sc_right_sound; assumption.
Qed.

Lemma sound_getattr e k : sim (R (I e)) (R e) -> sim (R (I (RGetAttr e k))) (R (RGetAttr e k)).
Proof.
  intros He. cbn [interp reval]. destruct (operand_shape _ _ He) as [v Ev ->|e0 _ ->|]; cbn [bind].
  - destruct v as [[b|z|s|u]|l|r|x]; try apply sim_errs.
    + destruct (get_attrs pes u) as [attrs|] eqn:A.
      * destruct (known_attrs u attrs A) as [d [Hd <-]]. unfold get_attr. rewrite Hd.
        destruct (lookup k (eattrs d)); cbn; auto.
      * rewrite Ev. apply sim_refl.
    + unfold get_attr. destruct (lookup k r); cbn; auto.
  - apply sim_errs.
  - exact (sim_bind_l _ _ _ He).
Qed.

Lemma sound_hasattr e k : sim (R (I e)) (R e) -> sim (R (I (RHasAttr e k))) (R (RHasAttr e k)).
Proof.
  intros He. cbn [interp reval]. destruct (operand_shape _ _ He) as [v Ev ->|e0 _ ->|]; cbn [bind].
  - destruct v as [[b|z|s|u]|l|r|x]; try apply sim_errs.
    + destruct (get_attrs pes u) as [attrs|] eqn:A.
      * destruct (known_attrs u attrs A) as [d [Hd <-]]. unfold has_attr. rewrite Hd. apply sim_refl.
      * rewrite Ev. apply sim_refl.
    + apply sim_refl.
  - apply sim_errs.
  - exact (sim_bind_l _ _ _ He).
Qed.

(* Where the partial store does not know enough, `interp_bin` returns the operator applied to the two values, which
   evaluates to `binary_app` by definition: the `sim_refl` cases below. *)
Lemma in_entity_sound u1 u2 :
  sim (R (interp_bin pes BIn (VEntity u1) (VEntity u2))) (binary_app es BIn (VEntity u1) (VEntity u2)).
Proof.
  cbn [interp_bin as_entity VEntity]. destruct (uid_eqb u1 u2) eqn:EQ.
  - cbn. rewrite EQ. reflexivity.
  - destruct (get_ancestors pes u1) as [anc|] eqn:A; [|apply sim_refl].
    destruct (known_ancestors u1 anc A) as [d [Hd Hn]].
    cbn. rewrite EQ, Hd, Hn, orb_false_r. reflexivity.
Qed.

(* Over the uids us of the set, both sides compute `existsb (uid_eqb u1) us || existsb desc us`, desc being
   "is an ancestor of u1".  With the ancestors of u1 known, `interp_bin` computes all of it; with them unknown it
   answers only when u1 itself is in us or us is empty, and otherwise keeps the application. *)
Lemma in_set_sound u1 l :
  sim (R (interp_bin pes BIn (VEntity u1) (VSet l))) (binary_app es BIn (VEntity u1) (VSet l)).
Proof.
  cbn [interp_bin as_entity VEntity]. destruct (mapM as_entity l) as [us|em] eqn:M.
  2:{ unfold binary_app, eval_in. cbn [VEntity as_entity bind]. rewrite M. apply sim_errs. }
  set (desc := fun u2 : uid => match find_entity u1 es with Some d => is_descendant_of d u2 | None => false end).
  assert (RHS : binary_app es BIn (VEntity u1) (VSet l) = Ok (VBool (existsb (uid_eqb u1) us || existsb desc us))).
  { rewrite <- existsb_orb. unfold binary_app, eval_in. cbn [VEntity as_entity bind]. rewrite M. reflexivity. }
  destruct (get_ancestors pes u1) as [anc|] eqn:A.
  - destruct (known_ancestors u1 anc A) as [d [Hd Hn]].
    assert (D : existsb desc us = existsb (fun u2 => existsb (uid_eqb u2) anc) us).
    { apply existsb_ext. intros x. unfold desc. rewrite Hd. apply Hn. }
    rewrite RHS, D, andb_false_r.
    destruct (existsb (uid_eqb u1) us || existsb (fun u2 => existsb (uid_eqb u2) anc) us); reflexivity.
  - rewrite orb_false_r. destruct (existsb (uid_eqb u1) us) eqn:M1.
    + rewrite RHS. reflexivity.
    + destruct us as [|u0 us']; [|apply sim_refl]. rewrite RHS. reflexivity.
Qed.

Lemma get_tag_sound v1 v2 : sim (R (interp_bin pes BGetTag v1 v2)) (binary_app es BGetTag v1 v2).
Proof.
  cbn [interp_bin]. destruct (as_entity v1) as [u|e1] eqn:E1.
  2:{ unfold binary_app. rewrite E1. apply sim_errs. }
  destruct (as_string v2) as [t|e2] eqn:E2.
  2:{ unfold binary_app. rewrite E1, E2. apply sim_errs. }
  destruct (get_tags pes u) as [tags|] eqn:T; [|apply sim_refl].
  destruct (known_tags u tags T) as [d [Hd <-]].
  unfold binary_app. rewrite E1, E2. cbn [bind]. rewrite Hd. destruct (lookup t (etags d)); cbn; auto.
Qed.

Lemma has_tag_sound v1 v2 : sim (R (interp_bin pes BHasTag v1 v2)) (binary_app es BHasTag v1 v2).
Proof.
  cbn [interp_bin]. destruct (as_entity v1) as [u|e1] eqn:E1.
  2:{ unfold binary_app. rewrite E1. apply sim_errs. }
  destruct (as_string v2) as [t|e2] eqn:E2.
  2:{ unfold binary_app. rewrite E1, E2. apply sim_errs. }
  destruct (get_tags pes u) as [tags|] eqn:T; [|apply sim_refl].
  destruct (known_tags u tags T) as [d [Hd <-]].
  unfold binary_app. rewrite E1, E2. cbn [bind]. rewrite Hd. apply sim_refl.
Qed.

Lemma interp_bin_sound op v1 v2 : sim (R (interp_bin pes op v1 v2)) (binary_app es op v1 v2).
Proof.
  destruct op; try exact (of_res_sim _).
  - apply sim_refl.
  - destruct v1 as [[b|z|s|u1]|l1|r1|x1]; try apply sim_errs.
    destruct v2 as [[b|z|s|u2]|l2|r2|x2]; try apply sim_errs.
    + apply in_entity_sound.
    + apply in_set_sound.
  - apply get_tag_sound.
  - apply has_tag_sound.
Qed.

Lemma sound_bin op a b : sim (R (I a)) (R a) -> sim (R (I b)) (R b) -> sim (R (I (RBin op a b))) (R (RBin op a b)).
Proof.
  intros Ha Hb. cbn [interp]. destruct (operand_shape _ _ Ha) as [v1 _ Ea|e _ Ea|].
  - destruct (operand_shape _ _ Hb) as [v2 _ Eb|e _ Eb|].
    + cbn [reval]. rewrite Ea, Eb. apply interp_bin_sound.
    + cbn [reval]. rewrite Ea, Eb. apply sim_errs.
    + apply bin_cong; assumption.
  - cbn [reval]. rewrite Ea. apply sim_errs.
  - destruct (operand_shape _ _ Hb) as [v2 _ Eb|e _ Eb|].
    + apply bin_cong; assumption.
    + cbn [reval]. rewrite Eb. destruct (R a); apply sim_errs.
    + apply bin_cong; assumption.
Qed.

Fixpoint rlist (l : list residual) : res (list value) :=
  match l with
  | [] => Ok []
  | x :: l' => do v <- R x; do vs <- rlist l'; Ok (v :: vs)
  end.
Fixpoint rrec (l : list (str * residual)) : res (list (str * value)) :=
  match l with
  | [] => Ok []
  | (k, x) :: l' => do v <- R x; do kvs <- rrec l'; Ok ((k, v) :: kvs)
  end.
Lemma R_ext fn args : R (RExt fn args) = (do vs <- rlist args; cx fn vs).
Proof. reflexivity. Qed.
Lemma R_set items : R (RSet items) = (do vs <- rlist items; Ok (VSet vs)).
Proof. reflexivity. Qed.
Lemma R_record items : R (RRecord items) = (do kvs <- rrec items; Ok (VRecord kvs)).
Proof. reflexivity. Qed.

Lemma vals_eval l : forall vs, vals_of l = Some vs -> rlist l = Ok vs.
Proof.
  induction l as [|x l IH]; intros vs Hv; cbn in Hv.
  - inversion Hv; reflexivity.
  - destruct (val_of x) as [v|] eqn:V; [|discriminate]. destruct (vals_of l) as [vs'|]; [|discriminate].
    inversion Hv; subst. apply val_of_val in V. subst x. cbn. rewrite (IH vs' eq_refl). reflexivity.
Qed.
Lemma err_eval l : existsb is_err l = true -> exists e, rlist l = Err e.
Proof.
  induction l as [|x l IH]; cbn [existsb rlist]; intros He; [discriminate|].
  destruct (is_err x) eqn:E.
  - apply is_err_err in E. subst x. cbn. eauto.
  - destruct (IH He) as [e IHe]. rewrite IHe. destruct (R x); cbn; eauto.
Qed.
Lemma list_cong l : Forall (fun x => sim (R (I x)) (R x)) l -> sim (rlist (map I l)) (rlist l).
Proof.
  induction 1 as [|x l Hx _ IH]; cbn [map rlist]; [reflexivity|].
  apply sim_bind; [exact Hx|]. intros v. apply sim_bind_l, IH.
Qed.

Lemma list_arm (node : list residual -> residual) (k : list value -> res value) (done : list value -> residual) l' x :
  (forall l, R (node l) = do vs <- rlist l; k vs) -> (forall vs, sim (R (done vs)) (k vs)) ->
  sim (rlist l') x ->
  sim (R match vals_of l' with
         | Some vs => done vs
         | None => if existsb is_err l' then RErr else node l'
         end)
      (do vs <- x; k vs).
Proof.
  intros HK Hf H. destruct (vals_of l') as [vs|] eqn:V.
  - rewrite (vals_eval _ _ V) in H. rewrite (sim_ok_l _ _ H). apply Hf.
  - destruct (existsb is_err l') eqn:E.
    + destruct (err_eval _ E) as [e He]. rewrite He in H. destruct (sim_err_l _ _ H) as [e' ->]. apply sim_errs.
    + rewrite HK. apply sim_bind_l, H.
Qed.

Lemma sound_ext fn args : Forall (fun x => sim (R (I x)) (R x)) args ->
  sim (R (I (RExt fn args))) (R (RExt fn args)).
Proof.
  intros H. rewrite R_ext. apply (list_arm (RExt fn) (cx fn)); [apply R_ext| |apply list_cong, H].
  intros vs. apply of_res_sim.
Qed.
Lemma sound_set items : Forall (fun x => sim (R (I x)) (R x)) items ->
  sim (R (I (RSet items))) (R (RSet items)).
Proof.
  intros H. rewrite R_set. apply (list_arm RSet (fun vs => Ok (VSet vs))); [apply R_set| |apply list_cong, H].
  intros vs. apply sim_refl.
Qed.

Notation IK := (fun kv : str * residual => (fst kv, I (snd kv))).
Lemma kvals_eval l : forall kvs, kvals_of l = Some kvs -> rrec l = Ok kvs.
Proof.
  induction l as [|[k x] l IH]; intros kvs Hv; cbn in Hv.
  - inversion Hv; reflexivity.
  - destruct (val_of x) as [v|] eqn:V; [|discriminate]. destruct (kvals_of l) as [vs'|]; [|discriminate].
    inversion Hv; subst. apply val_of_val in V. subst x. cbn. rewrite (IH vs' eq_refl). reflexivity.
Qed.
Lemma kerr_eval l : existsb (fun kv => is_err (snd kv)) l = true -> exists e, rrec l = Err e.
Proof.
  induction l as [|[k x] l IH]; cbn [existsb rrec snd]; intros He; [discriminate|].
  destruct (is_err x) eqn:E.
  - apply is_err_err in E. subst x. cbn. eauto.
  - destruct (IH He) as [e IHe]. rewrite IHe. destruct (R x); cbn; eauto.
Qed.
Lemma rrec_cong l : Forall (fun kv => sim (R (I (snd kv))) (R (snd kv))) l -> sim (rrec (map IK l)) (rrec l).
Proof.
  induction 1 as [|[k x] l Hx _ IH]; cbn [map rrec fst snd]; [reflexivity|].
  apply sim_bind; [exact Hx|]. intros v. apply sim_bind_l, IH.
Qed.

Lemma sound_record items : Forall (fun kv => sim (R (I (snd kv))) (R (snd kv))) items ->
  sim (R (I (RRecord items))) (R (RRecord items)).
Proof.
  intros H. apply rrec_cong in H. cbn [interp]. rewrite (R_record items).
  destruct (kvals_of (map IK items)) as [kvs|] eqn:V.
  - rewrite (kvals_eval _ _ V) in H. rewrite (sim_ok_l _ _ H). apply sim_refl.
  - destruct (existsb (fun kv => is_err (snd kv)) (map IK items)) eqn:E.
    + destruct (kerr_eval _ E) as [e He]. rewrite He in H. destruct (sim_err_l _ _ H) as [e' ->]. apply sim_errs.
    + rewrite R_record. apply sim_bind_l, H.
Qed.

(* The side condition.  Validation on a conformant completion is expected to give it; that is not derived here. *)
Fixpoint Side (r : residual) : Prop :=
  match r with
  | RAnd a b | ROr a b =>
      Side a /\ Side b /\ boolish a /\ boolish b /\ (can_error (I a) = false -> forall e, R a <> Err e)
  | RIf c a b => Side c /\ Side a /\ Side b
  | RUn _ a | RGetAttr a _ | RHasAttr a _ | RLike a _ | RIs a _ => Side a
  | RBin _ a b => Side a /\ Side b
  | RExt _ l | RSet l => (fix go (l : list residual) : Prop := match l with [] => True | x :: l' => Side x /\ go l' end) l
  | RRecord l => (fix go (l : list (str * residual)) : Prop :=
                    match l with [] => True | kv :: l' => Side (snd kv) /\ go l' end) l
  | _ => True
  end.

Lemma side_forall l : Forall (fun x => Side x -> sim (R (I x)) (R x)) l -> Side (RSet l) ->
  Forall (fun x => sim (R (I x)) (R x)) l.
Proof.
  induction 1 as [|x l Hx _ IH]; intros HS; constructor.
  - apply Hx. exact (proj1 HS).
  - apply IH. exact (proj2 HS).
Qed.
Lemma side_forall_rec l : Forall (fun kv => Side (snd kv) -> sim (R (I (snd kv))) (R (snd kv))) l -> Side (RRecord l) ->
  Forall (fun kv => sim (R (I (snd kv))) (R (snd kv))) l.
Proof.
  induction 1 as [|x l Hx _ IH]; intros HS; constructor.
  - apply Hx. exact (proj1 HS).
  - apply IH. exact (proj2 HS).
Qed.

Theorem interp_sound r : Side r -> sim (R (I r)) (R r).
Proof.
  induction r using residual_ind'; intros HS.
  - apply sim_refl.
  - apply sim_refl.
  - apply sound_var.
  - destruct HS as [H1 [H2 H3]]. apply sound_if; auto.
  - destruct HS as [H1 [H2 [H3 [H4 H5]]]]. apply (sound_sc false); auto.
  - destruct HS as [H1 [H2 [H3 [H4 H5]]]]. apply (sound_sc true); auto.
  - apply sound_un; auto.
  - destruct HS as [H1 H2]. apply sound_bin; auto.
  - apply sound_ext. exact (side_forall _ H HS).
  - apply sound_getattr; auto.
  - apply sound_hasattr; auto.
  - apply sound_like; auto.
  - apply sound_is; auto.
  - apply sound_set. exact (side_forall _ H HS).
  - apply sound_record. exact (side_forall_rec _ H HS).
Qed.

End Sound.
