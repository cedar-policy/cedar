(* The PartialResponse views (property C13), for any per-policy status function `pstat` that is sound
   for the concrete per-policy outcomes `evalp`: what the views say of the partial response holds of
   `authorize_with evalp`. *)
From Cedar Require Import AuthzProofs.
From Cedar Require Import PE.

(* what a partial status promises about the concrete outcome of the same policy *)
Definition status_sound (st : pstatus) (r : res bool) : Prop :=
  match st with
  | SSat => r = Ok true
  | SFalse => r = Ok false
  | SErr _ => exists e, r = Err e
  | SRes _ => True
  | SOut => False                 (* outside the model: excluded *)
  end.

(* the part of it the decision / determining views rely on: a policy recorded as false or
   errored is simply not satisfied *)
Definition status_weak (st : pstatus) (r : res bool) : Prop :=
  match st with
  | SSat => r = Ok true
  | SFalse | SErr _ => r <> Ok true
  | SRes _ => True
  | SOut => False
  end.

Lemma status_sound_weak st r : status_sound st r -> status_weak st r.
Proof. destruct st; cbn; auto; [congruence | intros [e0 H]; congruence]. Qed.

Section Views.
  Variable pstat : policy -> pstatus.
  Variable evalp : policy -> res bool.

  Definition item_of (p : policy) : pitem := mkPItem (pid p) (peffect p) (pstat p).

  Lemma any_where_true f ps :
    any_where f (pitems_with pstat ps) = true <-> exists p, In p ps /\ f (item_of p) = true.
  Proof.
    unfold any_where, pitems_with. rewrite existsb_exists. split.
    - intros [x [Hx Hf]]. apply in_map_iff in Hx as [p [E Hp]]. subst x. eauto.
    - intros [p [Hp Hf]]. exists (item_of p). split; [exact (in_map item_of ps p Hp) | exact Hf].
  Qed.

  Lemma any_where_false f ps :
    any_where f (pitems_with pstat ps) = false <-> forall p, In p ps -> f (item_of p) = false.
  Proof.
    rewrite <- Bool.not_true_iff_false, any_where_true. split.
    - intros N p Hp. destruct (f (item_of p)) eqn:E; [exfalso; eauto | reflexivity].
    - intros H [p [Hp Hf]]. rewrite (H p Hp) in Hf. discriminate.
  Qed.

  Lemma in_ids_where f ps i :
    In i (ids_where f (pitems_with pstat ps)) <-> exists p, In p ps /\ pid p = i /\ f (item_of p) = true.
  Proof.
    unfold ids_where, pitems_with. rewrite in_map_iff. split.
    - intros [x [E Hx]]. apply filter_In in Hx as [Hx Hf].
      apply in_map_iff in Hx as [p [E' Hp]]. subst x. exists p. auto.
    - intros [p [Hp [E Hf]]]. exists (item_of p). split; [exact E|].
      apply filter_In. split; [exact (in_map item_of ps p Hp) | exact Hf].
  Qed.

  Definition effect_is (eff : effect) (i : pitem) : bool :=
    match eff with Permit => is_permit i | Forbid => is_forbid i end.

  Lemma effect_is_item eff p : effect_is eff (item_of p) = true <-> peffect p = eff.
  Proof. unfold effect_is, is_forbid, is_permit. cbn. destruct eff, (peffect p); cbn; split; congruence. Qed.

  Variable ps : list policy.
  Hypothesis sound : forall p, In p ps -> status_weak (pstat p) (evalp p).

  Lemma sat_item eff p :
    In p ps -> is_sat (item_of p) && effect_is eff (item_of p) = true -> peffect p = eff /\ evalp p = Ok true.
  Proof.
    intros Hp Hf. apply andb_prop in Hf as [Hs He]. split; [apply effect_is_item; exact He|].
    pose proof (sound p Hp) as St. unfold is_sat in Hs. cbn in Hs. destruct (pstat p); try discriminate. exact St.
  Qed.

  Lemma sat_or_res_item p : In p ps -> evalp p = Ok true -> is_sat (item_of p) || is_res (item_of p) = true.
  Proof.
    intros Hp E. pose proof (sound p Hp) as St. unfold is_sat, is_res. cbn.
    destruct (pstat p); cbn in *; auto; contradiction.
  Qed.

  Lemma sat_of_partial eff :
    any_where (fun i => is_sat i && effect_is eff i) (pitems_with pstat ps) = true ->
    exists p, In p ps /\ peffect p = eff /\ evalp p = Ok true.
  Proof.
    intros H. apply any_where_true in H as [p [Hp Hf]]. exists p. split; [exact Hp | exact (sat_item eff p Hp Hf)].
  Qed.

  Lemma sat_forbid_of_partial :
    any_where (fun i => is_sat i && is_forbid i) (pitems_with pstat ps) = true -> sat_forbid evalp ps.
  Proof. exact (sat_of_partial Forbid). Qed.

  Lemma sat_permit_of_partial :
    any_where (fun i => is_sat i && is_permit i) (pitems_with pstat ps) = true -> sat_permit evalp ps.
  Proof. exact (sat_of_partial Permit). Qed.

  Lemma no_sat eff :
    any_where (fun i => is_sat i && effect_is eff i) (pitems_with pstat ps) = false ->
    any_where (fun i => is_res i && effect_is eff i) (pitems_with pstat ps) = false ->
    ~ exists p, In p ps /\ peffect p = eff /\ evalp p = Ok true.
  Proof.
    intros H1 H2 [p [Hp [He Hv]]]. rewrite any_where_false in H1, H2. specialize (H1 p Hp). specialize (H2 p Hp).
    apply effect_is_item in He. rewrite He, Bool.andb_true_r in H1, H2.
    pose proof (sat_or_res_item p Hp Hv) as SR. rewrite H1, H2 in SR. discriminate.
  Qed.

  Lemma sat_ids_sound eff i :
    In i (ids_where (fun i => is_sat i && effect_is eff i) (pitems_with pstat ps)) ->
    exists p, In p ps /\ pid p = i /\ peffect p = eff /\ evalp p = Ok true.
  Proof.
    intros H. apply in_ids_where in H as [p [Hp [E Hf]]]. exists p.
    split; [exact Hp|]. split; [exact E | exact (sat_item eff p Hp Hf)].
  Qed.

  Theorem pdecision_sound d :
    pdecision (pitems_with pstat ps) = Some d -> rdecision (authorize_with evalp ps) = d.
  Proof.
    unfold pdecision. intros H.
    destruct (any_where (fun i => is_sat i && is_forbid i) _) eqn:SF.
    - (* a forbid is satisfied *)
      inversion H; subst d. apply decision_deny_iff. intros [_ N]. apply N. apply sat_forbid_of_partial; exact SF.
    - destruct (any_where (fun i => is_sat i && is_permit i) _) eqn:SP.
      + (* a permit is satisfied: Allow, unless a forbid is still open *)
        destruct (any_where (fun i => is_res i && is_forbid i) _) eqn:RF.
        * discriminate H.
        * inversion H; subst d. apply decision_allow_iff. split.
          -- apply sat_permit_of_partial; exact SP.
          -- apply (no_sat Forbid); assumption.
      + (* no permit is satisfied: Deny, unless a permit is still open *)
        destruct (any_where (fun i => is_res i && is_permit i) _) eqn:RP.
        * destruct (any_where (fun i => is_res i && is_forbid i) _); discriminate.
        * inversion H; subst d. apply decision_deny_iff. intros [P _]. revert P. apply (no_sat Permit); assumption.
  Qed.

  Theorem must_sound i :
    In i (must_be_determining (pitems_with pstat ps)) -> In i (rreasons (authorize_with evalp ps)).
  Proof.
    unfold must_be_determining. intros H. apply reasons_iff.
    destruct (any_where (fun i => is_sat i && is_forbid i) (pitems_with pstat ps)) eqn:SF; cbn [negb andb] in H.
    - left. split; [apply sat_forbid_of_partial; exact SF | apply (sat_ids_sound Forbid); exact H].
    - destruct (any_where (fun i => is_res i && is_forbid i) (pitems_with pstat ps)) eqn:RF; cbn [negb andb] in H.
      + (* ids of satisfied forbids: there are none *)
        apply in_ids_where in H as [p [Hp [E Hf]]].
        rewrite any_where_false in SF. rewrite (SF p Hp) in Hf. discriminate.
      + right. split; [apply (no_sat Forbid); assumption | apply (sat_ids_sound Permit); exact H].
  Qed.

  Theorem may_sound i :
    In i (rreasons (authorize_with evalp ps)) -> In i (may_be_determining (pitems_with pstat ps)).
  Proof.
    intros H. apply reasons_iff in H. unfold may_be_determining.
    destruct (any_where (fun i => is_sat i && is_forbid i) (pitems_with pstat ps)) eqn:SF.
    - destruct H as [[_ [p [Hp [E [He Hv]]]]] | [N _]].
      + apply in_ids_where. exists p. split; [exact Hp|]. split; [exact E|].
        rewrite (sat_or_res_item p Hp Hv). apply (effect_is_item Forbid). exact He.
      + exfalso. apply N. apply sat_forbid_of_partial; exact SF.
    - destruct H as [[_ [p [Hp [E [He Hv]]]]] | [_ [p [Hp [E [He Hv]]]]]].
      all: apply in_ids_where; exists p; split; [exact Hp|]; split; [exact E|].
      all: pose proof (sat_or_res_item p Hp Hv) as SR.
      + (* a satisfied forbid that was not recorded as satisfied was recorded as a residual *)
        rewrite any_where_false in SF. specialize (SF p Hp).
        apply (effect_is_item Forbid) in He. cbn [effect_is] in He. rewrite He, Bool.andb_true_r in SF.
        rewrite SF in *. exact SR.
      + apply (effect_is_item Permit) in He. cbn [effect_is] in He. rewrite He, Bool.andb_true_r. exact SR.
  Qed.
End Views.

Section DefiniteViews.
  Variable pstat : policy -> pstatus.
  Variable evalp : policy -> res bool.
  Variable ps : list policy.
  Hypothesis sound : forall p, In p ps -> status_sound (pstat p) (evalp p).

  Theorem satisfied_sound i :
    In i (definitely_satisfied (pitems_with pstat ps)) -> exists p, In p ps /\ pid p = i /\ evalp p = Ok true.
  Proof.
    intros H. apply in_ids_where in H as [p [Hp [E Hf]]]. exists p. pose proof (sound p Hp) as St.
    unfold is_sat, item_of in Hf; cbn in Hf. destruct (pstat p); try discriminate. auto.
  Qed.

  Theorem errored_sound i :
    In i (definitely_errored (pitems_with pstat ps)) -> exists p e, In p ps /\ pid p = i /\ evalp p = Err e.
  Proof.
    intros H. apply in_ids_where in H as [p [Hp [E Hf]]]. pose proof (sound p Hp) as St.
    unfold is_err, item_of in Hf; cbn in Hf. destruct (pstat p); try discriminate.
    destruct St as [e' St]. exists p, e'. auto.
  Qed.

  Theorem false_sound i :
    In i (trivially_false (pitems_with pstat ps)) -> exists p, In p ps /\ pid p = i /\ evalp p = Ok false.
  Proof.
    intros H. apply in_ids_where in H as [p [Hp [E Hf]]]. exists p. pose proof (sound p Hp) as St.
    unfold is_false, item_of in Hf; cbn in Hf. destruct (pstat p); try discriminate. auto.
  Qed.
End DefiniteViews.
