(* C12 — formatter: meaning- and comment-preserving, idempotent without comments.
   What the Gallina model carries is the RELATIONAL specification
   (model/Fmt.v): `clex` lexes a text with the formatter's own token regexes keeping comments as
   items; `fmt_ok inp out` says both lex to the same item sequence (white space free).  The check
   runs the extracted `fmt_okb` as a verified validator on every (input, output) pair the
   implementation produces.  NOT provable in this family, and labelled so in notes/C12.md:
   totality ("formatting succeeds") and the layout chosen by the `pretty` crate.
   `c12_idem_partial` is partial: idempotence is reduced to the two facts F1/F2 about the
   implementation, which are validated per run, not proved. *)
From Cedar Require Import Fmt FmtProofs FmtCanonProofs.

Theorem c12_validator_sound_complete : forall inp out, fmt_okb inp out = true <-> fmt_ok inp out.
Proof.
  intros a b. unfold fmt_okb, fmt_ok. split.
  - destruct (clex a) as [la|] eqn:Ea; [|discriminate]. destruct (clex b) as [lb|] eqn:Eb; [|discriminate].
    intros H. apply items_eqb_eq in H. subst. exists lb; split; reflexivity.
  - intros [l [Ha Hb]]. rewrite Ha, Hb. apply items_eqb_eq; reflexivity.
Qed.
Print Assumptions c12_validator_sound_complete.

(* every comment of the input appears in the output, in the same relative order, and no other *)
Theorem c12_comments :
  forall inp out, fmt_ok inp out -> comments out = comments inp /\ comments inp <> None.
Proof. exact (fmt_ok_view comments_of). Qed.
Print Assumptions c12_comments.

(* same token sequence; hence ANY parser that is a function of the token list (policies, ids
   derived from the order of policies, annotations and their order) gives the same result *)
Theorem c12_tokens :
  forall inp out, fmt_ok inp out -> tokens out = tokens inp /\ tokens inp <> None.
Proof. exact (fmt_ok_view tokens_of). Qed.
Print Assumptions c12_tokens.

Theorem c12_tokens_parse :
  forall (A : Type) (parse : list token -> A) inp out,
    fmt_ok inp out -> option_map parse (tokens out) = option_map parse (tokens inp).
Proof. intros A parse inp out H. apply c12_tokens in H as [H _]. rewrite H; reflexivity. Qed.
Print Assumptions c12_tokens_parse.

Theorem c12_fmt_ok_equivalence :
  (forall a, clex a <> None -> fmt_ok a a) /\
  (forall a b, fmt_ok a b -> fmt_ok b a) /\
  (forall a b c, fmt_ok a b -> fmt_ok b c -> fmt_ok a c).
Proof. exact (conj fmt_ok_refl (conj fmt_ok_sym fmt_ok_trans)). Qed.
Print Assumptions c12_fmt_ok_equivalence.

(* re-formatting any output, any number of times, still preserves tokens and comments *)
Theorem c12_reformat_preserves :
  forall (f : str -> str), (forall a, clex a <> None -> fmt_ok a (f a)) ->
  forall n a, clex a <> None -> fmt_ok a (iter f n a).
Proof.
  intros f F2 n. induction n as [|n IH]; intros a Ha; cbn [iter].
  - apply fmt_ok_refl; assumption.
  - specialize (IH a Ha). apply (fmt_ok_trans _ _ _ IH), F2.
    destruct IH as [l [_ Hl]]. rewrite Hl. discriminate.
Qed.
Print Assumptions c12_reformat_preserves.

(* idempotence without comments, reduced to the two hypotheses: F2, the output is accepted by the
   validator, and F1, on comment-free inputs the output is a function of the token sequence *)
Theorem c12_idem_partial :
  forall (f : str -> str),
    (forall a, clex a <> None -> fmt_ok a (f a)) ->
    (forall a b, comment_free a -> comment_free b -> tokens a = tokens b -> f a = f b) ->
    forall a, clex a <> None -> comment_free a -> f (f a) = f a.
Proof. exact idempotent. Qed.
Print Assumptions c12_idem_partial.

(* the lexer is compositional over a newline: texts that lex separately lex, joined by a newline, to
   the concatenation of their items *)
Theorem c12_lex_join :
  forall s1 s2 l1 l2, clex s1 = Some l1 -> clex s2 = Some l2 ->
    clex (s1 ++ 10%N :: s2)%list = Some (l1 ++ l2)%list.
Proof. exact clex_join. Qed.
Print Assumptions c12_lex_join.

(* hence formatting policy by policy and joining with newlines (what policies_str_to_pretty does,
   end-of-file comments included) preserves tokens and comments if each piece does *)
Theorem c12_join_preserves :
  forall a a' b b', fmt_ok a a' -> fmt_ok b b' -> fmt_ok (a ++ 10%N :: b)%list (a' ++ 10%N :: b')%list.
Proof.
  intros a a' b b' [l [Ha Ha']] [l' [Hb Hb']]. exists (l ++ l')%list. split; apply clex_join; assumption.
Qed.
Print Assumptions c12_join_preserves.

(* every token the lexer produces re-lexes to exactly itself (replay invariant of the mode automaton) *)
Theorem c12_tokens_relex :
  forall s l, clex s = Some l -> Forall item_wf l.
Proof. exact clex_wf. Qed.
Print Assumptions c12_tokens_relex.

(* The canonical printer `canon` (one token per line) satisfies F1, and F2 on comment-free lexable
   texts (it drops comments, so not F2 as c12_idem_partial states it); the proof of idempotence uses
   F2 at comment-free texts only, so `canon` is idempotent there.  The specification "fmt_ok on
   comment-free texts + function of the tokens" thus has a model. *)
Theorem c12_idem_canonical :
  (forall a, clex a <> None -> comment_free a -> fmt_ok a (canon a)) /\
  (forall a b, clex a <> None -> tokens a = tokens b -> canon a = canon b) /\
  (forall a, clex a <> None -> comment_free a -> canon (canon a) = canon a).
Proof. exact (conj canon_F2 (conj canon_F1 canon_idempotent)). Qed.
Print Assumptions c12_idem_canonical.

Example c12_example_ok :
  fmt_okb (s2str "permit(principal,action,resource)when{1<2};// c  ")
          (s2str "permit (principal, action, resource)
when { 1 < 2 }; // c
") = true.
Proof. vm_compute; reflexivity. Qed.
Example c12_example_lost_comment :
  fmt_okb (s2str "permit(principal,action,resource);// c") (s2str "permit(principal,action,resource);") = false.
Proof. vm_compute; reflexivity. Qed.
Example c12_example_string_not_comment :
  comments (s2str "a == ""// no"" // yes") = Some [s2str "// yes"].
Proof. vm_compute; reflexivity. Qed.
Example c12_example_changed_token :
  fmt_okb (s2str "a <= b") (s2str "a < = b") = false /\ fmt_okb (s2str "a::b") (s2str "a : : b") = false.
Proof. split; vm_compute; reflexivity. Qed.
Example c12_example_canon :
  canon (s2str "permit(principal,action,resource);") =
  s2str "permit
(
principal
,
action
,
resource
)
;
".
Proof. vm_compute; reflexivity. Qed.
