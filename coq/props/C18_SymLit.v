(* C18 — symbolic compilation against a literal environment agrees with concrete evaluation.
   Model: coq/model/SymLit.v (literal terms, the term factory on literal arguments).

   c18_bv_arith, c18_bv_cmp   FULL: the factory's signed-overflow predicates on 64-bit vectors are exactly the
                              evaluator's i64 range tests, wrapped add/sub/mul/neg are the images of the exact
                              results (and read back as the exact result when in range); signed comparisons and
                              equality of encoded longs are the integer ones.
   c18_verify, c18_verify_pair, c18_verify_authz
                              FULL for the assertion shapes: every verify_* list is [false] (unsatisfiable)
                              exactly in the case the property names, whenever the enforcer assertions are `true`.
   c18_compile_eval_partial   PARTIAL (fragment): for every expression whose long literals are in i64 (lits_ok) and
                              on which compile_lit succeeds — bool / long / string / entity literals, principal /
                              action / resource, ! neg, == < <= + - *, && || if-then-else, like, is (anything else
                              makes compile_lit CUnsupported, except in positions the compiler folds away) — the
                              compiled literal term is `some (term of v)`
                              when the evaluator returns v and `none` when it errors.  Missing for the full
                              statement: sets, records, attribute access (has / .), `in`, tags, isEmpty, contains*,
                              extension functions, context; these are covered by the implementation-level oracle
                              of the check only. *)
From Cedar Require Import SymLit SymLitProofs.
Open Scope Z_scope.

Theorem c18_bv_arith : forall a b, in_i64 a = true -> in_i64 b = true ->
  bvsaddo (bv_of_int a) (bv_of_int b) = negb (in_i64 (a + b)) /\
  bvssubo (bv_of_int a) (bv_of_int b) = negb (in_i64 (a - b)) /\
  bvsmulo (bv_of_int a) (bv_of_int b) = negb (in_i64 (a * b)) /\
  bvnego (bv_of_int a) = negb (in_i64 (- a)) /\
  bvadd (bv_of_int a) (bv_of_int b) = bv_of_int (a + b) /\
  bvsub (bv_of_int a) (bv_of_int b) = bv_of_int (a - b) /\
  bvmul (bv_of_int a) (bv_of_int b) = bv_of_int (a * b) /\
  bvneg (bv_of_int a) = bv_of_int (- a) /\
  (in_i64 (a + b) = true -> bv_to_int (bvadd (bv_of_int a) (bv_of_int b)) = a + b) /\
  (in_i64 (a - b) = true -> bv_to_int (bvsub (bv_of_int a) (bv_of_int b)) = a - b) /\
  (in_i64 (a * b) = true -> bv_to_int (bvmul (bv_of_int a) (bv_of_int b)) = a * b) /\
  (in_i64 (- a) = true -> bv_to_int (bvneg (bv_of_int a)) = - a).
Proof.
  intros a b Ha Hb. rewrite bvadd_hom, bvsub_hom, bvmul_hom, bvneg_hom. repeat split.
  - exact (overflows_hom Z.add a b Ha Hb).
  - exact (overflows_hom Z.sub a b Ha Hb).
  - exact (overflows_hom Z.mul a b Ha Hb).
  - exact (overflows_hom (fun x _ => - x) a a Ha Ha).
  - apply bv_to_of.
  - apply bv_to_of.
  - apply bv_to_of.
  - apply bv_to_of.
Qed.
Print Assumptions c18_bv_arith.

Theorem c18_bv_cmp : forall a b, in_i64 a = true -> in_i64 b = true ->
  bvslt (bv_of_int a) (bv_of_int b) = (a <? b) /\
  bvsle (bv_of_int a) (bv_of_int b) = (a <=? b) /\
  lit_eqb (LBv (bv_of_int a)) (LBv (bv_of_int b)) = (a =? b).
Proof. exact bv_cmp. Qed.
Print Assumptions c18_bv_cmp.

Example c18_bv_example :
  bvsaddo (bv_of_int i64_max) (bv_of_int 1) = true /\ bvsmulo (bv_of_int i64_min) (bv_of_int (-1)) = true /\
  bvnego (bv_of_int i64_min) = true /\ bvadd (bv_of_int (-5)) (bv_of_int 7) = bv_of_int 2 /\
  bvslt (bv_of_int (-1)) (bv_of_int 0) = true.
Proof. vm_compute. repeat split. Qed.

Theorem c18_verify : forall enf t, forallb (fun b => b) enf = true ->
  (verdict_of (verify_never_errors enf t) = Unsat <-> exists l, t = TSome l) /\
  (verdict_of (verify_always_matches enf t) = Unsat <-> t = TSome (LBool true)) /\
  (verdict_of (verify_never_matches enf t) = Unsat <-> t <> TSome (LBool true)).
Proof. exact verify_single. Qed.
Print Assumptions c18_verify.

Theorem c18_verify_pair : forall enf t1 t2, forallb (fun b => b) enf = true ->
  (verdict_of (verify_matches_equivalent enf t1 t2) = Unsat <-> matches_t t1 = matches_t t2) /\
  (verdict_of (verify_matches_implies enf t1 t2) = Unsat <-> (matches_t t1 = true -> matches_t t2 = true)) /\
  (verdict_of (verify_matches_disjoint enf t1 t2) = Unsat <-> ~ (matches_t t1 = true /\ matches_t t2 = true)).
Proof.
  intros enf t1 t2 H. destruct (verify_authz enf (matches_t t1) (matches_t t2) H) as (_ & _ & I & E & D).
  exact (conj E (conj I D)).
Qed.
Print Assumptions c18_verify_pair.

Theorem c18_verify_authz : forall enf d1 d2, forallb (fun b => b) enf = true ->
  (verdict_of (verify_always_allows enf d1) = Unsat <-> d1 = true) /\
  (verdict_of (verify_always_denies enf d1) = Unsat <-> d1 = false) /\
  (verdict_of (verify_implies enf d1 d2) = Unsat <-> (d1 = true -> d2 = true)) /\
  (verdict_of (verify_equivalent enf d1 d2) = Unsat <-> d1 = d2) /\
  (verdict_of (verify_disjoint enf d1 d2) = Unsat <-> ~ (d1 = true /\ d2 = true)).
Proof. exact verify_authz. Qed.
Print Assumptions c18_verify_authz.

Example c18_verify_example :
  verdict_of (verify_never_errors [true; true] (TNone TyBool)) = Sat /\
  verdict_of (verify_never_errors [true] (TSome (LBool false))) = Unsat /\
  verdict_of (verify_always_allows [] (authz_lit [(Permit, TSome (LBool true)); (Forbid, TNone TyBool)])) = Unsat.
Proof. vm_compute. repeat split. Qed.

(* the conclusion is `rel (eval sl q es e) t` of SymLitProofs.v written out *)
Theorem c18_compile_eval_partial : forall valid sl q es e t,
  lits_ok e = true -> compile_lit valid q e = COk t ->
  match eval sl q es e with
  | Ok (VPrim (PLong z)) => in_i64 z = true /\ t = TSome (LBv (bv_of_int z))
  | Ok (VPrim p) => t = TSome (lit_of_prim p)
  | Ok _ => False
  | Err _ => exists ty, t = TNone ty
  end.
Proof. exact compile_eval. Qed.
Print Assumptions c18_compile_eval_partial.

Example c18_compile_example :
  let q := mkRequest (mkUid [[85]%N] [97]%N) (mkUid [[65]%N] [118]%N) (mkUid [[68]%N] [100]%N) [] in
  compile_lit (fun _ => true) q
    (Or (BinApp BLess (BinApp BAdd (Lit (PLong i64_max)) (Lit (PLong 1))) (Lit (PLong 0))) (Lit (PBool true)))
    = COk (TNone TyBool) /\
  compile_lit (fun _ => true) q
    (And (Is (Var Principal) [[85]%N]) (BinApp BEq (BinApp BMul (Lit (PLong 3)) (Lit (PLong (-4)))) (Lit (PLong (-12)))))
    = COk (TSome (LBool true)).
Proof. vm_compute. split; reflexivity. Qed.
