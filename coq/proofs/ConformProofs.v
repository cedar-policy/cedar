(* ConformProofs.v — lemmas for property C11 (schema conformance).
   The checkers of model/Conform.v (transcribed from conformance.rs / coreschema.rs / types.rs) answer
   in `cres` and are built from `cthen`, `first_err` and guards `if c then None else Some e`; the
   declarative specification of Conform.v part 3 is built from /\, bounded quantification and
   `exists i, find .. = Some i /\ ..`.  One lemma per combinator (`cthen_iff`, `first_err_iff`,
   `guard_iff`, `ex_some_match`) makes each "checker = None <-> specification" a derivation that
   follows the text of the checker.
   Also here, because the C03 proofs need them too: the induction principle `ty_ind'` of the nested type `ty`
   and the facts about record types.  The file ends with the example schema of props/C11_Conform.v. *)
From Coq Require Import String.
From Cedar Require Import Conform ValueProofs.

Lemma existsb_name_In x l : existsb (name_eqb x) l = true <-> In x l.
Proof. exact (existsb_eqb_In name_eqb name_eqb_eq x l). Qed.

Lemma lub_contains_In ts t : lub_contains ts t = true <-> In t ts.
Proof. apply existsb_name_In. Qed.

Lemma andb_iff (a b : bool) (A B : Prop) : (a = true <-> A) -> (b = true <-> B) -> (a && b = true <-> A /\ B).
Proof. intros <- <-. apply andb_true_iff. Qed.

Lemma ex_some_match {A} (o : option A) (P : A -> Prop) :
  (exists x, o = Some x /\ P x) <-> match o with Some x => P x | None => False end.
Proof.
  destruct o as [a|]; split.
  - intros [x [[= <-] H]]. exact H.
  - intros H. exists a. split; [reflexivity | exact H].
  - intros [x [E _]]. discriminate E.
  - intros [].
Qed.

Lemma cthen_iff a b (A B : Prop) : (a = None <-> A) -> (b = None <-> B) -> (cthen a b = None <-> A /\ B).
Proof.
  intros Ha Hb. destruct a as [e|]; cbn [cthen]; split.
  - discriminate.
  - intros [H _]. apply Ha in H. discriminate H.
  - intros H. split; [apply Ha; reflexivity | apply Hb; exact H].
  - intros [_ H]. apply Hb; exact H.
Qed.

Lemma guard_iff (c : bool) (e : cerr) (P : Prop) :
  (c = true <-> P) -> ((if c then None else Some e) = None <-> P).
Proof.
  intros H. rewrite <- H. destruct c; split; intros E; try reflexivity; discriminate E.
Qed.

Lemma first_err_iff {A} (f : A -> cres) (P : A -> Prop) l :
  (forall x, In x l -> (f x = None <-> P x)) -> (first_err f l = None <-> forall x, In x l -> P x).
Proof.
  induction l as [|y l IH]; intros H; cbn [first_err].
  - split; [intros _ x [] | reflexivity].
  - etransitivity.
    + apply cthen_iff; [apply H; left; reflexivity | apply IH; intros x Hx; apply H; right; exact Hx].
    + split.
      * intros [Hy Hl] x [<-|Hx]; [exact Hy | exact (Hl x Hx)].
      * intros Hall. split; [apply Hall; left; reflexivity | intros x Hx; apply Hall; right; exact Hx].
Qed.

Lemma first_err_pairs_iff {A B} (f : A * B -> cres) (P : A -> B -> Prop) l :
  (forall k v, In (k, v) l -> (f (k, v) = None <-> P k v)) ->
  (first_err f l = None <-> forall k v, In (k, v) l -> P k v).
Proof.
  intros H. etransitivity.
  - apply (first_err_iff f (fun kv => P (fst kv) (snd kv))). intros [k v]. apply H.
  - split; [intros Hall k v; apply (Hall (k, v)) | intros Hall [k v]; apply Hall].
Qed.

Lemma accepts_true r : accepts r = true <-> r = None.
Proof. destruct r; cbn; split; intros; try discriminate; auto. Qed.

(* the part the two record checkers share *)
Definition each_attr {T} (chk : value -> T -> bool) (attrs : list (str * (T * bool))) (open : bool)
    (kvs : list (str * value)) : bool :=
  forallb (fun kv : str * value =>
             match lookup (fst kv) attrs with
             | Some (ta, _) => chk (snd kv) ta
             | None => open
             end) kvs.

Lemma each_attr_iff {T} (chk : value -> T -> bool) attrs open kvs :
  each_attr chk attrs open kvs = true <->
  (forall k v, In (k, v) kvs -> forall t r, lookup k attrs = Some (t, r) -> chk v t = true) /\
  (open = false -> forall k v, In (k, v) kvs -> has_key k attrs = true).
Proof.
  unfold each_attr, has_key. rewrite forallb_forall. split.
  - intros H. split; [intros k v Hin t r Hl | intros -> k v Hin]; specialize (H _ Hin); cbn [fst snd] in H.
    + rewrite Hl in H. exact H.
    + destruct (lookup k attrs) as [[t r]|]; [reflexivity | discriminate H].
  - intros [Hty Hext] [k v] Hin. cbn [fst snd]. destruct (lookup k attrs) as [[t r]|] eqn:Hl.
    + exact (Hty k v Hin t r Hl).
    + destruct open; [reflexivity|]. specialize (Hext eq_refl k v Hin). rewrite Hl in Hext. discriminate Hext.
Qed.

Lemma tc_value_ty_record kvs attrs open :
  tc_value_ty (VRecord kvs) (TRecord attrs open) =
  each_attr tc_value_ty attrs open kvs && forallb (fun a : str * (ty * bool) => negb (snd (snd a)) || has_key (fst a) kvs) attrs.
Proof.
  cbn [tc_value_ty]. f_equal. unfold each_attr.
  induction kvs as [|[k v] l IH]; cbn [forallb fst snd]; [reflexivity|].
  rewrite <- IH. reflexivity.
Qed.

Lemma tc_value_ty_set l e :
  tc_value_ty (VSet l) (TSet (Some e)) = forallb (fun x => tc_value_ty x e) l.
Proof. reflexivity. Qed.

Lemma TypeConforms_set l e : TypeConforms (VSet l) (TSet (Some e)) <-> forall x, In x l -> TypeConforms x e.
Proof. split; [intros H; inversion H; assumption | apply TC_set]. Qed.

Lemma TypeConforms_record kvs attrs open :
  TypeConforms (VRecord kvs) (TRecord attrs open) <->
  (forall k t, In (k, (t, true)) attrs -> has_key k kvs = true) /\
  (forall k v, In (k, v) kvs -> forall t r, lookup k attrs = Some (t, r) -> TypeConforms v t) /\
  (open = false -> forall k v, In (k, v) kvs -> has_key k attrs = true).
Proof.
  split.
  - intros H. inversion H; subst. repeat split; assumption.
  - intros (H1 & H2 & H3). apply TC_record; assumption.
Qed.

Lemma tc_value_ty_sound v : forall t, tc_value_ty v t = true -> TypeConforms v t.
Proof.
  induction v as [p|l IH|kvs IH|x] using value_ind'; intros t H.
  - destruct t as [|[]| | |[e|]|[|ts]|attrs open|n]; try discriminate H;
      destruct p as [[]|z|s|u]; try discriminate H; constructor.
    apply lub_contains_In, H.
  - destruct t as [|[]| | |[e|]|[|ts]|attrs open|n]; try discriminate H; [|constructor].
    rewrite tc_value_ty_set, forallb_forall in H. rewrite Forall_forall in IH.
    apply TypeConforms_set. intros x Hx. apply (IH x Hx), H, Hx.
  - destruct t as [|[]| | |[e|]|[|ts]|attrs open|n]; try discriminate H.
    rewrite tc_value_ty_record in H. apply andb_true_iff in H as [He Hr].
    apply each_attr_iff in He as [Hty Hext]. rewrite forallb_forall in Hr. rewrite Forall_forall in IH.
    apply TypeConforms_record. split; [|split].
    + intros k t Hin. exact (Hr _ Hin).
    + intros k v Hin t r Hl. exact (IH (k, v) Hin t (Hty k v Hin t r Hl)).
    + exact Hext.
  - destruct t as [|[]| | |[e|]|[|ts]|attrs open|n]; try discriminate H.
    constructor. apply name_eqb_eq, H.
Qed.

(* By recursion on the derivation: TypeConforms is nested through `forall x, In x l -> ..`, where the
   generated induction principle gives no hypothesis. *)
Lemma tc_value_ty_complete : forall v t, TypeConforms v t -> tc_value_ty v t = true.
Proof.
  fix IH 3. intros v t H. destruct H as [| | | | | |l e Hl|u ts Hin| |kvs attrs open Hreq Hty Hext|x n Hn];
    try reflexivity.
  - rewrite tc_value_ty_set. apply forallb_forall. intros x Hx. exact (IH x e (Hl x Hx)).
  - apply lub_contains_In, Hin.
  - rewrite tc_value_ty_record. apply andb_true_iff. split.
    + apply each_attr_iff. split; [|exact Hext]. intros k v Hin t r Hl. exact (IH v t (Hty k v Hin t r Hl)).
    + apply forallb_forall. intros [k [t []]] Hin; [exact (Hreq k t Hin) | reflexivity].
  - subst n. apply name_eqb_refl.
Qed.

Theorem tc_value_ty_iff v t : tc_value_ty v t = true <-> TypeConforms v t.
Proof. split; [apply tc_value_ty_sound | apply tc_value_ty_complete]. Qed.

Lemma enum_ok_In ch u : enum_ok ch u = true <-> In (ueid u) ch.
Proof. exact (existsb_eqb_In str_eqb str_eqb_eq (ueid u) ch). Qed.

Lemma known_action_iff sch u : known_action sch u = true <-> exists ai, find_action sch u = Some ai.
Proof.
  unfold known_action. destruct (find_action sch u) as [ai|]; split.
  - intros _. exists ai. reflexivity.
  - reflexivity.
  - discriminate.
  - intros [x E]. discriminate E.
Qed.

(* the enumerated-id check shared by `uid_ok` and `conf_scope_var` *)
Lemma enum_check_iff (en : option (list str)) u :
  match en with
  | Some ch => if enum_ok ch u then None else Some CInvalidEnumEntity
  | None => None
  end = None <-> forall ch, en = Some ch -> In (ueid u) ch.
Proof.
  destruct en as [ch|].
  - etransitivity; [apply guard_iff, enum_ok_In|].
    split; [intros H ch' [= <-]; exact H | intros H; apply H; reflexivity].
  - split; [intros _ ch [=] | reflexivity].
Qed.

Lemma uid_ok_iff sch u : uid_ok sch u = None <-> UidValid sch u.
Proof.
  unfold uid_ok, UidValid. apply cthen_iff.
  - destruct (find_etype sch (uty u)) as [i|].
    + etransitivity; [apply enum_check_iff|].
      split; [intros H i' ch [= <-]; apply H | intros H ch; apply H; reflexivity].
    + split; [intros _ i ch [=] | reflexivity].
  - rewrite <- known_action_iff. destruct (is_action_type (uty u)); cbn [andb].
    + destruct (known_action sch u); cbn [negb]; split;
        [reflexivity | reflexivity | discriminate | intros H; discriminate (H eq_refl)].
    + split; [intros _ H; discriminate H | reflexivity].
Qed.

Lemma value_uids_set sch l : value_uids sch (VSet l) = first_err (value_uids sch) l.
Proof.
  cbn [value_uids]. induction l as [|x l IH]; cbn [first_err]; [reflexivity|]. rewrite <- IH. reflexivity.
Qed.

Lemma value_uids_record sch kvs :
  value_uids sch (VRecord kvs) = first_err (fun kv : str * value => value_uids sch (snd kv)) kvs.
Proof.
  cbn [value_uids]. induction kvs as [|[k x] l IH]; cbn [first_err snd]; [reflexivity|]. rewrite <- IH. reflexivity.
Qed.

Lemma UidsValid_entity sch u : UidsValid sch (VEntity u) <-> UidValid sch u.
Proof.
  split.
  - intros H. apply H. constructor.
  - intros H u' Hin. inversion Hin; subst. exact H.
Qed.

Lemma UidsValid_set sch l : UidsValid sch (VSet l) <-> forall x, In x l -> UidsValid sch x.
Proof.
  split.
  - intros H x Hx u Hu. apply H. exact (UI_set u x l Hx Hu).
  - intros H u Hin. inversion Hin as [|x l' Hx Hu|]; subst. exact (H x Hx u Hu).
Qed.

Lemma UidsValid_record sch kvs :
  UidsValid sch (VRecord kvs) <-> forall k x, In (k, x) kvs -> UidsValid sch x.
Proof.
  split.
  - intros H k x Hx u Hu. apply H. exact (UI_record u k x kvs Hx Hu).
  - intros H u Hin. inversion Hin as [| |k x kvs' Hx Hu]; subst. exact (H k x Hx u Hu).
Qed.

Lemma invalid_uid_anywhere sch u v : UidIn u v -> ~ UidValid sch u -> ~ UidsValid sch v.
Proof. intros Hin Hn Hv. apply Hn. apply Hv. exact Hin. Qed.

Theorem value_uids_iff sch v : value_uids sch v = None <-> UidsValid sch v.
Proof.
  induction v as [p|l IH|kvs IH|x] using value_ind'.
  - destruct p as [b|z|s|u]; cbn [value_uids];
      try (split; [intros _ u' Hin; inversion Hin | reflexivity]).
    exact (iff_trans (uid_ok_iff sch u) (iff_sym (UidsValid_entity sch u))).
  - rewrite value_uids_set, UidsValid_set. rewrite Forall_forall in IH. apply first_err_iff, IH.
  - rewrite value_uids_record, UidsValid_record. rewrite Forall_forall in IH.
    apply first_err_pairs_iff. intros k x Hin. exact (IH (k, x) Hin).
  - split; [intros _ u Hin; inversion Hin | reflexivity].
Qed.

Theorem conf_value_iff sch v t : conf_value sch v t = true <-> ValueConforms sch v t.
Proof.
  unfold conf_value, ValueConforms. apply andb_iff; [apply tc_value_ty_iff|].
  rewrite accepts_true. apply value_uids_iff.
Qed.

Lemma conf_value_false sch v t : conf_value sch v t = false <-> ~ ValueConforms sch v t.
Proof. rewrite <- conf_value_iff. symmetry. apply not_true_iff_false. Qed.

Section TyInd.
  Variable P : ty -> Prop.
  Hypothesis Hnever : P TNever.
  Hypothesis Hbool : forall b, P (TBool b).
  Hypothesis Hlong : P TLong.
  Hypothesis Hstring : P TString.
  Hypothesis Hanyset : P (TSet None).
  Hypothesis Hset : forall e, P e -> P (TSet (Some e)).
  Hypothesis Hent : forall k, P (TEntity k).
  Hypothesis Hrec : forall attrs open, Forall (fun a : str * (ty * bool) => P (fst (snd a))) attrs -> P (TRecord attrs open).
  Hypothesis Hext : forall n, P (TExt n).

  Fixpoint ty_ind' (t : ty) : P t :=
    match t with
    | TNever => Hnever
    | TBool b => Hbool b
    | TLong => Hlong
    | TString => Hstring
    | TSet None => Hanyset
    | TSet (Some e) => Hset e (ty_ind' e)
    | TEntity k => Hent k
    | TRecord attrs open =>
        Hrec attrs open
          ((fix go (l : attrs_ty) : Forall (fun a : str * (ty * bool) => P (fst (snd a))) l :=
              match l with
              | [] => Forall_nil _
              | a :: l' => Forall_cons _ (ty_ind' (fst (snd a))) (go l')
              end) attrs)
    | TExt n => Hext n
    end.
End TyInd.

(* the attribute loop of `to_sty` as a named function *)
Fixpoint to_sty_attrs (l : attrs_ty) : option attrs_sty :=
  match l with
  | [] => Some []
  | (k, (a, r)) :: l' =>
      match to_sty a, to_sty_attrs l' with
      | Some s, Some rest => Some ((k, (s, r)) :: rest)
      | _, _ => None
      end
  end.

Lemma to_sty_record attrs open :
  to_sty (TRecord attrs open) = option_map (fun a => SRecord a open) (to_sty_attrs attrs).
Proof.
  reflexivity.
Qed.

Lemma schema_ty_record attrs open :
  schema_ty (TRecord attrs open) = forallb (fun a : str * (ty * bool) => schema_ty (fst (snd a))) attrs.
Proof.
  cbn [schema_ty]. induction attrs as [|[k [a r]] l IH]; [reflexivity|].
  cbn [forallb fst snd]. rewrite <- IH. reflexivity.
Qed.

Lemma wf_ty_record attrs open :
  wf_ty (TRecord attrs open) = keys_nodup attrs && forallb (fun a : str * (ty * bool) => wf_ty (fst (snd a))) attrs.
Proof.
  cbn [wf_ty]. f_equal. induction attrs as [|[k [a r]] l IH]; [reflexivity|].
  cbn [forallb fst snd]. rewrite <- IH. reflexivity.
Qed.

Lemma decl_ty_ok_record attrs open :
  decl_ty_ok (TRecord attrs open) = true ->
  keys_nodup attrs = true /\ forall a, In a attrs -> decl_ty_ok (fst (snd a)) = true.
Proof.
  unfold decl_ty_ok. rewrite schema_ty_record, wf_ty_record. intros H.
  apply andb_true_iff in H as [H1 H2]. apply andb_true_iff in H2 as [H2 H3].
  split; [exact H2|]. intros a Ha. rewrite forallb_forall in H1, H3.
  rewrite (H1 _ Ha), (H3 _ Ha). reflexivity.
Qed.

Lemma tc_value_st_record kvs attrs open :
  tc_value_st (VRecord kvs) (SRecord attrs open) =
  forallb (fun a : str * (sty * bool) =>
             if snd (snd a) then match lookup (fst a) kvs with
                                 | Some v' => tc_value_st v' (fst (snd a))
                                 | None => false
                                 end
             else true) attrs
  && each_attr tc_value_st attrs open kvs.
Proof.
  cbn [tc_value_st]. f_equal.
  - apply forallb_ext. intros [k [t r]]. cbn [fst snd]. destruct r; [|reflexivity].
    induction kvs as [|[k' v'] l IH]; [reflexivity|]. cbn [lookup]. rewrite IH. destruct (str_eqb k k'); reflexivity.
  - unfold each_attr. induction kvs as [|[k v] l IH]; cbn [forallb fst snd]; [reflexivity|].
    rewrite <- IH. reflexivity.
Qed.

Definition attr_rel (a : str * (ty * bool)) (sa : str * (sty * bool)) : Prop :=
  fst a = fst sa /\ snd (snd a) = snd (snd sa) /\
  forall v, tc_value_st v (fst (snd sa)) = tc_value_ty v (fst (snd a)).

Lemma attr_rel_lookup attrs sattrs :
  Forall2 attr_rel attrs sattrs -> forall k,
  match lookup k attrs, lookup k sattrs with
  | Some (ta, r), Some (sta, sr) => r = sr /\ forall v, tc_value_st v sta = tc_value_ty v ta
  | None, None => True
  | _, _ => False
  end.
Proof.
  induction 1 as [|[k1 [t1 r1]] [k2 [t2 r2]] l1 l2 [Hk [Hr Hv]] HF IH]; intros k; cbn [lookup]; [exact I|].
  cbn [fst snd] in *. subst k2. destruct (str_eqb k k1); [auto | apply IH].
Qed.

Lemma to_sty_attrs_rel attrs :
  Forall (fun a : str * (ty * bool) =>
            exists st, to_sty (fst (snd a)) = Some st /\ forall v, tc_value_st v st = tc_value_ty v (fst (snd a))) attrs ->
  exists sattrs, to_sty_attrs attrs = Some sattrs /\ Forall2 attr_rel attrs sattrs.
Proof.
  induction 1 as [|[k [a r]] l [st [Hst Hv]] _ [rest [Hrest HF]]].
  - exists []. split; [reflexivity | constructor].
  - exists ((k, (st, r)) :: rest). cbn [fst snd] in Hst. split.
    + cbn [to_sty_attrs]. rewrite Hst, Hrest. reflexivity.
    + constructor; [|exact HF]. repeat split. exact Hv.
Qed.

(* The SchemaType checker types the value of a required attribute against that entry's own type,
   the Type checker against the first entry with that key: without duplicate keys they are the same
   entry. *)
Lemma tc_record_agree attrs sattrs open kvs :
  keys_nodup attrs = true -> Forall2 attr_rel attrs sattrs ->
  tc_value_st (VRecord kvs) (SRecord sattrs open) = tc_value_ty (VRecord kvs) (TRecord attrs open).
Proof.
  intros Hnd HF. rewrite tc_value_st_record, tc_value_ty_record.
  assert (He : each_attr tc_value_st sattrs open kvs = each_attr tc_value_ty attrs open kvs).
  { unfold each_attr. apply forallb_ext. intros [k v]. cbn [fst snd].
    pose proof (attr_rel_lookup _ _ HF k) as Hl.
    destruct (lookup k attrs) as [[ta r]|], (lookup k sattrs) as [[sta sr]|]; try contradiction; [|reflexivity].
    apply Hl. }
  rewrite He. destruct (each_attr tc_value_ty attrs open kvs) eqn:Hety; [|apply andb_false_r].
  rewrite andb_true_r. cbn [andb]. symmetry. apply (forallb_Forall2 _ _ _ _ _ HF).
  intros [k [ta r]] [k' [sta sr]] Hin [Hk [Hr Hv]]. cbn [fst snd] in *. subst k' sr.
  destruct r; [|reflexivity]. cbn [negb orb]. unfold has_key.
  destruct (lookup k kvs) as [v'|] eqn:Hl; [|reflexivity].
  symmetry. rewrite Hv. apply lookup_In in Hl.
  apply each_attr_iff in Hety as [Hty _]. exact (Hty k v' Hl ta true (nodup_In_lookup _ _ _ Hnd Hin)).
Qed.

(* The two value checkers (validator Type for contexts, SchemaType for entities) agree on declared types. *)
Theorem st_agrees t :
  decl_ty_ok t = true ->
  exists st, to_sty t = Some st /\ forall v, tc_value_st v st = tc_value_ty v t.
Proof.
  induction t as [|b| | | |e IH|k|attrs open IH|n] using ty_ind'; intros Hok.
  - discriminate.
  - destruct b; try discriminate. exists SBool. split; [reflexivity|]. intros [[]| | |]; reflexivity.
  - exists SLong. split; [reflexivity|]. intros [[]| | |]; reflexivity.
  - exists SString. split; [reflexivity|]. intros [[]| | |]; reflexivity.
  - discriminate.
  - destruct (IH Hok) as [st [Hst Hv]]. exists (SSet st). split.
    + cbn [to_sty]. rewrite Hst. reflexivity.
    + intros [[]|l| |]; try reflexivity. cbn [tc_value_st]. rewrite tc_value_ty_set.
      apply forallb_ext. intros x. apply Hv.
  - destruct k as [|[|t [|]]]; try discriminate. exists (SEntity t). split; [reflexivity|].
    intros [[]| | |]; try reflexivity. cbn. rewrite orb_false_r. reflexivity.
  - apply decl_ty_ok_record in Hok as [Hnd Hdecl].
    destruct (to_sty_attrs_rel attrs) as [sattrs [Hs HF]].
    { rewrite Forall_forall in *. intros a Ha. exact (IH a Ha (Hdecl a Ha)). }
    exists (SRecord sattrs open). split; [rewrite to_sty_record, Hs; reflexivity|].
    intros [p|l|kvs|x]; try reflexivity. exact (tc_record_agree _ _ _ _ Hnd HF).
  - exists (SExt n). split; [reflexivity|]. intros [[]| | |]; reflexivity.
Qed.

Lemma find_etype_in_In t l i : find_etype_in t l = Some i -> In (t, i) l.
Proof.
  induction l as [|[n j] l IH]; cbn [find_etype_in]; [discriminate|].
  destruct (name_eqb t n) eqn:E.
  - intros [= ->]. apply name_eqb_eq in E; subst. left; reflexivity.
  - intros H; right; auto.
Qed.

Lemma find_action_in_In u l i : find_action_in u l = Some i -> In (u, i) l.
Proof.
  induction l as [|[n j] l IH]; cbn [find_action_in]; [discriminate|].
  destruct (uid_eqb u n) eqn:E.
  - intros [= ->]. apply uid_eqb_eq in E; subst. left; reflexivity.
  - intros H; right; auto.
Qed.

Lemma wf_find_etype sch t i : schema_wf sch = true -> find_etype sch t = Some i -> etype_info_wf i = true.
Proof.
  unfold schema_wf, find_etype. intros H Hf. apply andb_true_iff in H as [H _].
  rewrite forallb_forall in H. apply (H _ (find_etype_in_In _ _ _ Hf)).
Qed.

Lemma wf_find_action sch u ai :
  schema_wf sch = true -> find_action sch u = Some ai ->
  decl_ty_ok (ai_context ai) = true /\ is_action_type (uty u) = true.
Proof.
  unfold schema_wf, find_action. intros H Hf. apply andb_true_iff in H as [_ H].
  rewrite forallb_forall in H. specialize (H _ (find_action_in_In _ _ _ Hf)). cbn [fst snd] in H.
  apply andb_true_iff in H. exact H.
Qed.

Lemma wf_attr_ty i k t r : etype_info_wf i = true -> lookup k (et_attrs i) = Some (t, r) -> decl_ty_ok t = true.
Proof.
  unfold etype_info_wf. intros H Hl. apply andb_true_iff in H as [H _].
  rewrite forallb_forall in H. apply (H _ (lookup_In _ _ _ Hl)).
Qed.

Lemma wf_tag_ty i t : etype_info_wf i = true -> et_tags i = Some t -> decl_ty_ok t = true.
Proof. unfold etype_info_wf. intros H Ht. apply andb_true_iff in H as [_ H]. rewrite Ht in H. exact H. Qed.

Lemma conf_attr_value_iff v t : decl_ty_ok t = true -> (conf_attr_value v t = None <-> TypeConforms v t).
Proof.
  intros Hok. destruct (st_agrees t Hok) as [st [Hst Hv]]. unfold conf_attr_value. rewrite Hst, Hv.
  apply guard_iff, tc_value_ty_iff.
Qed.

Lemma conf_attrs_iff sch i attrs :
  etype_info_wf i = true ->
  (conf_attrs sch i attrs = None <->
   (forall k, In k (required_attrs i) -> has_key k attrs = true) /\
   (forall k v, In (k, v) attrs ->
      match lookup k (et_attrs i) with
      | Some (t, _) => ValueConforms sch v t
      | None => et_open i = true /\ UidsValid sch v
      end)).
Proof.
  intros Hwf. unfold conf_attrs. apply cthen_iff.
  - apply first_err_iff. intros k _. apply guard_iff. reflexivity.
  - apply first_err_pairs_iff. intros k v _. cbn [fst snd].
    destruct (lookup k (et_attrs i)) as [[t r]|] eqn:Hl; apply cthen_iff; try apply value_uids_iff.
    + apply conf_attr_value_iff, (wf_attr_ty _ _ _ _ Hwf Hl).
    + apply guard_iff. reflexivity.
Qed.

Lemma allowed_parent_iff sch t a :
  existsb (name_eqb a) (allowed_parent_types sch t) = true <-> PermittedAncestorType sch t a.
Proof.
  rewrite existsb_name_In. unfold allowed_parent_types, PermittedAncestorType. rewrite in_map_iff. split.
  - intros [[n i] [Hn Hin]]. cbn [fst] in Hn. subst n. apply filter_In in Hin as [Hin Hex].
    cbn [snd] in Hex. apply existsb_name_In in Hex. exists i; auto.
  - intros [i [Hin Hd]]. exists (a, i). split; [reflexivity|]. apply filter_In. split; [exact Hin|].
    cbn [snd]. apply existsb_name_In. exact Hd.
Qed.

Lemma conf_ancestors_iff sch t ancs :
  conf_ancestors sch t ancs = None <->
  forall a, In a ancs -> UidValid sch a /\ PermittedAncestorType sch t (uty a).
Proof.
  unfold conf_ancestors. apply first_err_iff. intros a _.
  apply cthen_iff; [apply uid_ok_iff | apply guard_iff, allowed_parent_iff].
Qed.

Lemma conf_tags_iff sch i tags :
  etype_info_wf i = true ->
  (conf_tags sch i tags = None <->
   forall k v, In (k, v) tags ->
     match et_tags i with Some t => ValueConforms sch v t | None => False end).
Proof.
  intros Hwf. unfold conf_tags. destruct (et_tags i) as [t|] eqn:Ht.
  - pose proof (wf_tag_ty _ _ Hwf Ht) as Hok. etransitivity.
    + apply cthen_iff; apply first_err_pairs_iff; intros k v _; cbn [snd];
        [apply (conf_attr_value_iff v t Hok) | apply value_uids_iff].
    + split.
      * intros [H1 H2] k v Hin. split; [exact (H1 k v Hin) | exact (H2 k v Hin)].
      * intros H. split; intros k v Hin; apply (H k v Hin).
  - destruct tags as [|[k v] l]; split.
    + intros _ k v [].
    + reflexivity.
    + discriminate.
    + intros H. destruct (H k v (or_introl eq_refl)).
Qed.

Lemma rec_eqb_nil xs : rec_eqb xs [] = true <-> xs = [].
Proof. destruct xs as [|[k v] l]; cbn; split; intros; try discriminate; reflexivity. Qed.

Lemma uids_subset_iff a b : uids_subset a b = true <-> forall x, In x a -> In x b.
Proof.
  unfold uids_subset. rewrite forallb_forall. split; intros H x Hx; specialize (H x Hx);
    apply (existsb_eqb_In uid_eqb uid_eqb_eq); exact H.
Qed.

(* Entity::deep_eq against an entity without attributes and tags *)
Lemma deep_eq_iff u d ancs :
  deep_eq u d u (mkEdata [] [] ancs) = true <->
  eattrs d = [] /\ etags d = [] /\ (forall a, In a (eancestors d) <-> In a ancs).
Proof.
  unfold deep_eq. cbn [eattrs etags eancestors]. rewrite uid_eqb_refl, !value_eqb_record. cbn [andb].
  etransitivity.
  - apply andb_iff; [apply andb_iff; [apply andb_iff; apply rec_eqb_nil|]|]; apply uids_subset_iff.
  - split.
    + intros [[[H1 H2] H3] H4]. repeat split; auto.
    + intros (H1 & H2 & H3). repeat split; auto; intros x; apply H3.
Qed.

Lemma conf_action_iff sch u d : conf_action sch u d = None <-> ActionConforms sch u d.
Proof.
  unfold conf_action, ActionConforms, action_entity. destruct (find_action sch u) as [ai|].
  - etransitivity; [apply guard_iff, deep_eq_iff|].
    split; [intros H; split; [exists ai; reflexivity | exact H] | intros [_ H]; exact H].
  - split; [discriminate | intros [[ai E] _]; discriminate E].
Qed.

Theorem conf_entity_iff sch e :
  schema_wf sch = true -> (conf_entity sch e = None <-> EntityConforms sch e).
Proof.
  intros Hwf. destruct e as [u d]. unfold conf_entity, EntityConforms. cbn [fst snd].
  destruct (is_action_type (uty u)); [apply conf_action_iff|].
  rewrite ex_some_match. destruct (find_etype sch (uty u)) as [i|] eqn:Hf; [|split; [discriminate | intros []]].
  pose proof (wf_find_etype _ _ _ Hwf Hf) as Hi. etransitivity.
  - apply cthen_iff; [apply uid_ok_iff|]. apply cthen_iff; [apply (conf_attrs_iff sch i _ Hi)|].
    apply cthen_iff; [apply conf_ancestors_iff | apply (conf_tags_iff sch i _ Hi)].
  - apply and_iff_compat_l, and_assoc.
Qed.

Lemma entity_conforms_inv sch u d i :
  schema_wf sch = true -> is_action_type (uty u) = false -> find_etype sch (uty u) = Some i ->
  conf_entity sch (u, d) = None ->
  UidValid sch u /\
  (forall k, In k (required_attrs i) -> has_key k (eattrs d) = true) /\
  (forall k v, In (k, v) (eattrs d) ->
     match lookup k (et_attrs i) with
     | Some (t, _) => ValueConforms sch v t
     | None => et_open i = true /\ UidsValid sch v
     end) /\
  (forall a, In a (eancestors d) -> UidValid sch a /\ PermittedAncestorType sch (uty u) (uty a)) /\
  (forall k v, In (k, v) (etags d) -> match et_tags i with Some t => ValueConforms sch v t | None => False end).
Proof.
  intros Hwf Hna Hf H. apply (conf_entity_iff _ _ Hwf) in H. unfold EntityConforms in H. cbn [fst snd] in H.
  rewrite Hna in H. apply ex_some_match in H. rewrite Hf in H. exact H.
Qed.

Lemma conf_scope_var_iff sch u e : conf_scope_var sch u e = None <-> ScopeVarConforms sch u.
Proof.
  unfold conf_scope_var, ScopeVarConforms. rewrite ex_some_match.
  destruct (find_etype sch (uty u)) as [i|]; [apply enum_check_iff | split; [discriminate | intros []]].
Qed.

Lemma conf_context_iff sch a ctx : conf_context sch a ctx = None <-> ContextConforms sch a ctx.
Proof.
  unfold conf_context, ContextConforms, ValueConforms. rewrite ex_some_match.
  destruct (find_action sch a) as [ai|]; [|split; [discriminate | intros []]].
  etransitivity; [apply cthen_iff; [apply value_uids_iff | apply guard_iff, tc_value_ty_iff] | apply and_comm].
Qed.

Lemma conf_scope_iff sch p a r :
  conf_scope sch p a r = None <->
  ScopeVarConforms sch p /\ ScopeVarConforms sch r /\
  exists ai, find_action sch a = Some ai /\ In (uty p) (ai_principals ai) /\ In (uty r) (ai_resources ai).
Proof.
  unfold conf_scope. apply cthen_iff; [apply conf_scope_var_iff|]. apply cthen_iff; [apply conf_scope_var_iff|].
  rewrite ex_some_match. destruct (find_action sch a) as [ai|]; [|split; [discriminate | intros []]].
  unfold applies_principal, applies_resource. apply cthen_iff; apply guard_iff, existsb_name_In.
Qed.

Theorem conf_request_iff sch q : conf_request sch q = None <-> RequestConforms sch q.
Proof.
  unfold conf_request, RequestConforms. etransitivity.
  - apply cthen_iff; [apply conf_scope_iff | apply conf_context_iff].
  - rewrite !and_assoc. reflexivity.
Qed.

Lemma cthen_neq a b e : a <> Some e -> b <> Some e -> cthen a b <> Some e.
Proof. destruct a; cbn [cthen]; auto. Qed.

Lemma first_err_neq {A} (f : A -> cres) l e : (forall x, In x l -> f x <> Some e) -> first_err f l <> Some e.
Proof.
  induction l as [|x l IH]; intros H; cbn [first_err]; [discriminate|].
  apply cthen_neq; [apply H; left; reflexivity | apply IH; intros y Hy; apply H; right; exact Hy].
Qed.

Lemma conf_attr_value_not_schematype v t : decl_ty_ok t = true -> conf_attr_value v t <> Some CSchemaType.
Proof.
  intros Hok. destruct (st_agrees t Hok) as [st [Hst Hv]]. unfold conf_attr_value. rewrite Hst.
  destruct (tc_value_st v st); discriminate.
Qed.

Lemma uid_ok_not_schematype sch u : uid_ok sch u <> Some CSchemaType.
Proof.
  unfold uid_ok. apply cthen_neq.
  - destruct (find_etype sch (uty u)) as [i|]; [|discriminate].
    destruct (et_enum i) as [ch|]; [|discriminate]. destruct (enum_ok ch u); discriminate.
  - destruct (is_action_type (uty u) && negb (known_action sch u)); discriminate.
Qed.

Lemma value_uids_not_schematype sch v : value_uids sch v <> Some CSchemaType.
Proof.
  induction v as [p|l IH|kvs IH|x] using value_ind'.
  - destruct p as [b|z|s|u]; try discriminate. apply uid_ok_not_schematype.
  - rewrite value_uids_set. rewrite Forall_forall in IH. apply first_err_neq, IH.
  - rewrite value_uids_record. rewrite Forall_forall in IH. apply first_err_neq, IH.
  - discriminate.
Qed.

(* CSchemaType stands for a Rust `expect` on the Type -> SchemaType conversion: of the checks
   that make up `conf_entity` only `conf_attr_value` can answer it, and on a declared type it does not. *)
Theorem conf_entity_not_schematype sch e : schema_wf sch = true -> conf_entity sch e <> Some CSchemaType.
Proof.
  intros Hwf. destruct e as [u d]. unfold conf_entity. cbn [fst snd].
  destruct (is_action_type (uty u)).
  - unfold conf_action. destruct (action_entity sch u) as [sd|]; [destruct (deep_eq u d u sd)|]; discriminate.
  - destruct (find_etype sch (uty u)) as [i|] eqn:Hf; [|discriminate].
    pose proof (wf_find_etype _ _ _ Hwf Hf) as Hi.
    apply cthen_neq; [apply uid_ok_not_schematype|]. apply cthen_neq; [|apply cthen_neq].
    + unfold conf_attrs. apply cthen_neq; apply first_err_neq.
      * intros k _. destruct (has_key k (eattrs d)); discriminate.
      * intros [k v] _. cbn [fst snd]. apply cthen_neq; [|apply value_uids_not_schematype].
        destruct (lookup k (et_attrs i)) as [[t r]|] eqn:Hl.
        -- apply conf_attr_value_not_schematype, (wf_attr_ty _ _ _ _ Hi Hl).
        -- destruct (et_open i); discriminate.
    + unfold conf_ancestors. apply first_err_neq. intros a _. apply cthen_neq; [apply uid_ok_not_schematype|].
      destruct (existsb (name_eqb (uty a)) (allowed_parent_types sch (uty u))); discriminate.
    + unfold conf_tags. apply cthen_neq.
      * destruct (et_tags i) as [t|] eqn:Ht; [|destruct (etags d); discriminate].
        apply first_err_neq. intros kv _. apply conf_attr_value_not_schematype, (wf_tag_ty _ _ Hi Ht).
      * apply first_err_neq. intros kv _. apply value_uids_not_schematype.
Qed.

Lemma verdict_accept r : verdict_of r = Accept <-> r = None.
Proof. destruct r; cbn; split; intros; try discriminate; reflexivity. Qed.

(* `ep_upsert_entities` is the same term *)
Theorem ep_add_iff sch es :
  schema_wf sch = true ->
  (ep_add_entities sch es = Accept <-> forall e, In e es -> EntityConforms sch e).
Proof.
  intros Hwf. unfold ep_add_entities, ep_add_entities_r. rewrite verdict_accept.
  apply first_err_iff. intros e _. apply conf_entity_iff, Hwf.
Qed.

Theorem ep_from_entities_iff sch es :
  schema_wf sch = true ->
  (ep_from_entities sch es = Accept <->
   (forall e, In e es -> is_action_entity e = false -> EntityConforms sch e) /\
   (forall e, In e (tc_close es) -> is_action_entity e = true -> EntityConforms sch e)).
Proof.
  intros Hwf. unfold ep_from_entities, ep_from_entities_r. rewrite verdict_accept. etransitivity.
  - apply cthen_iff; apply first_err_iff; intros e _; apply conf_entity_iff, Hwf.
  - split; intros [H1 H2]; split; intros e He.
    + intros Ha. apply H1, filter_In. rewrite Ha. auto.
    + intros Ha. apply H2, filter_In. auto.
    + apply filter_In in He as [He Ha]. apply (H1 e He), negb_true_iff, Ha.
    + apply filter_In in He as [He Ha]. exact (H2 e He Ha).
Qed.

Theorem ep_context_validate_iff sch a ctx : ep_context_validate sch a ctx = Accept <-> ContextConforms sch a ctx.
Proof. unfold ep_context_validate. rewrite verdict_accept. apply conf_context_iff. Qed.

Lemma rejected_context_not_conformant sch a ctx e :
  ep_context_validate sch a ctx = Reject e -> ~ ContextConforms sch a ctx.
Proof. intros Hv H. apply ep_context_validate_iff in H. rewrite H in Hv. discriminate Hv. Qed.

Lemma after_parse_accept p r : after_parse p r = Accept <-> p = JOk /\ r = None.
Proof. destruct p, r; cbn; (split; [intros H | intros [H1 H2]]); try discriminate; auto. Qed.

Theorem ep_entity_from_json_iff sch e :
  schema_wf sch = true ->
  (ep_entity_from_json sch e = Accept <-> jparse_entity sch e = JOk /\ EntityConforms sch e).
Proof.
  intros Hwf. unfold ep_entity_from_json. rewrite after_parse_accept, (conf_entity_iff _ _ Hwf). reflexivity.
Qed.

Theorem ep_entities_from_json_iff sch es :
  ep_entities_from_json sch es = Accept <->
  jres_all (jparse_entity sch) es = JOk /\ ep_from_entities sch es = Accept.
Proof.
  unfold ep_entities_from_json, ep_from_entities. rewrite after_parse_accept, verdict_accept. reflexivity.
Qed.

Theorem ep_add_entities_from_json_iff sch es :
  schema_wf sch = true ->
  (ep_add_entities_from_json sch es = Accept <->
   jres_all (jparse_entity sch) es = JOk /\ forall e, In e es -> EntityConforms sch e).
Proof.
  intros Hwf. unfold ep_add_entities_from_json. rewrite after_parse_accept, <- (ep_add_iff _ _ Hwf).
  unfold ep_add_entities. rewrite verdict_accept. reflexivity.
Qed.

(* A concrete schema: non-vacuity and the witness for Context::from_json. *)
Definition ex_user : etype := [s2str "User"].
Definition ex_group : etype := [s2str "Group"].
Definition ex_color : etype := [s2str "Color"].
Definition ex_view : uid := mkUid [s2str "Action"] (s2str "view").
Definition ex_all : uid := mkUid [s2str "Action"] (s2str "all").
Definition ex_ctx_ty : ty :=
  TRecord [(s2str "c", (ty_entity ex_color, false)); (s2str "n", (TLong, true));
           (s2str "s", (ty_set TLong, false))] false.
Definition ex_schema : schema :=
  mkSchema
    [(ex_user, mkEtypeInfo
                 [(s2str "c", (ty_entity ex_color, false));
                  (s2str "fr", (ty_set (ty_entity ex_user), false));
                  (s2str "n", (TLong, true));
                  (s2str "r", (TRecord [(s2str "z", (ty_set (ty_entity ex_color), true))] false, false))]
                 false (Some (ty_set TString)) [] None);
     (ex_group, mkEtypeInfo [] false None [ex_user] None);
     (ex_color, mkEtypeInfo [] false None [] (Some [s2str "red"; s2str "green"]))]
    [(ex_all, mkActionInfo [] [] (TRecord [] false) [ex_view]);
     (ex_view, mkActionInfo [ex_user] [ex_group] ex_ctx_ty [])].

Definition ex_uid (t : etype) (s : string) : uid := mkUid t (s2str s).
Definition ex_alice : uid * edata :=
  (ex_uid ex_user "alice",
   mkEdata [(s2str "c", VEntity (ex_uid ex_color "red")); (s2str "n", VLong 1);
            (s2str "r", VRecord [(s2str "z", VSet [VEntity (ex_uid ex_color "green")])])]
           [(s2str "t", VSet [VString (s2str "x")])]
           [ex_uid ex_group "g"]).
Definition ex_request : request :=
  mkRequest (ex_uid ex_user "alice") ex_view (ex_uid ex_group "g") [(s2str "n", VLong 1)].

Lemma ex_schema_wf : schema_wf ex_schema = true.
Proof. vm_compute. reflexivity. Qed.
