(* C17 — entity-manifest slicing keeps everything authorization needs.

   FULL STATEMENT (not proved):
     forall schema, strictly valid policy set ps, m = compute_entity_manifest schema ps,
     forall conformant q es,  is_authorized ps q (slice_by_manifest m q es) = is_authorized ps q es.
   The analysis (analysis.rs) is not transcribed; manifests computed by the implementation are validated
   per policy set by the executable `adequate` (translation validation) and the statement is checked on the
   implementation by the oracle of vp/props/c17.py.

   PROVED (for all tries, values, entities):
     - slice lemmas: an entity uid met by the trie is kept as is; a kept record keeps exactly the fields the
       trie lists (in order); slice ⊆ store (every kept attribute is the slice of the original attribute by
       the child trie); sliced entities carry no tags and no ancestors before the ancestors phase;
     - walk_app: access-path lookup in tries composes;
     - c17_adequate_getattr_covered_partial: a manifest accepted by `adequate` has a trie node for every
       direct attribute chain of an accepted GetAttr (PARTIAL: this is the coverage half of
       `adequate m e -> eval e (slice) = eval e (full)`; the evaluation-equality half is proved below for the
       stricter `frag` only, and on a store assumed to be a good slice). *)
From Cedar Require Import ManifestSpec ManifestProofs.

Theorem c17_slice_val_entity_kept : forall t u, slice_val t (VEntity u) = SOk (VEntity u).
Proof. reflexivity. Qed.
Print Assumptions c17_slice_val_entity_kept.

Theorem c17_slice_val_record_keys : forall t r r',
  slice_val t (VRecord r) = SOk (VRecord r') ->
  map fst r' = filter (fun k => has_key k (t_children t)) (map fst r).
Proof. intros t r r' H. exact (slice_fields_keys t r r' (slice_val_record_inv t r r' H)). Qed.
Print Assumptions c17_slice_val_record_keys.

Theorem c17_slice_entity_attrs_subset : forall t d d',
  slice_entity t d = SOk d' ->
  forall k v', In (k, v') (eattrs d') ->
  exists v t', In (k, v) (eattrs d) /\ lookup k (t_children t) = Some t' /\ slice_val t' v = SOk v'.
Proof. intros t d d' H. exact (slice_fields_subset t _ _ (proj1 (slice_entity_inv t d d' H))). Qed.
Print Assumptions c17_slice_entity_attrs_subset.

Theorem c17_slice_entity_no_tags : forall t d d',
  slice_entity t d = SOk d' -> etags d' = [] /\ eancestors d' = [].
Proof. intros t d d' H. exact (proj2 (slice_entity_inv t d d' H)). Qed.
Print Assumptions c17_slice_entity_no_tags.

Theorem c17_walk_app : forall p q t,
  walk t (p ++ q) = match walk t p with Some t' => walk t' q | None => None end.
Proof. exact walk_app. Qed.
Print Assumptions c17_walk_app.

Theorem c17_adequate_getattr_covered_partial : forall sl m e a ty p,
  adequate sl m (TEGetAttr e a ty) = true ->
  direct_path sl (TEGetAttr e a ty) = Some p ->
  exists t, node_at m p = Some t.
Proof. exact adequate_getattr_covered. Qed.
Print Assumptions c17_adequate_getattr_covered_partial.

(* MAIN THEOREM, partial: on any store es' that is a good slice of es for the root access trie m
   (`good_slice`: along every path of the trie the entities are present iff present in es, the listed
   attributes are present iff present in es and agree recursively, requested ancestors are kept exactly),
   every typed expression of the visible fragment whose manifest requirements are met (`frag sl m e =
   Some KExact`: literals, variables, slots, GetAttr chains from request variables / entity literals / slots,
   `has` on chains, && || ! if, == against a non-record operand or between exact operands, < <= + - *,
   containsAll/containsAny, contains of an exact element, like, is, extension calls / set / record literals of
   exact operands, `a in b` with a a chain and b a chain or a set literal of chains whose paths are marked in
   a's ancestors trie) evaluates on es' to the same value or error as on es.
   PARTIAL because (1) the fragment excludes projections out of record literals / `if`, == between two
   attribute chains (needs typing + full_type_required), tags; (2) `good_slice` is a hypothesis: the refinement
   `slice_by_manifest fuel m q es = SOk es' -> good_slice ...` (a proof about the fuelled loader loop and the
   merge) is NOT proved — the executable slice is tied to the implementation by the correspondence instead. *)
Theorem c17_adequate_sound_partial : forall q es es' m sl e,
  good_slice q es es' m -> frag sl m e = Some KExact ->
  eval sl q es' (erase e) = eval sl q es (erase e).
Proof. intros q es es' m sl e G F. exact (frag_sound q es es' m G sl e KExact F). Qed.
Print Assumptions c17_adequate_sound_partial.

(* lifted to responses through the authorizer model of C01: same decision, determining policies, errors *)
Theorem c17_response_sound_partial : forall q es es' m ps,
  good_slice q es es' m ->
  (forall p, In p ps -> exists te, pcondition p = erase te /\ frag (penv p) m te = Some KExact) ->
  is_authorized ps q es' = is_authorized ps q es.
Proof. exact response_sound. Qed.
Print Assumptions c17_response_sound_partial.

(* non-vacuity: a trie for principal.manager.name, a store, and the slice of the principal *)
Definition ex_trie : trie :=
  Trie [(s2str "manager", Trie [(s2str "name", Trie [] [] false)] [] false)] [] false.
Definition ex_user (n : string) : uid := mkUid [s2str "User"] (s2str n).
Definition ex_data : edata :=
  mkEdata [(s2str "age", VLong 3); (s2str "manager", VEntity (ex_user "bob"))] [(s2str "t", VLong 1)] [ex_user "g"].
Example ex_slice_entity :
  slice_entity ex_trie ex_data = SOk (mkEdata [(s2str "manager", VEntity (ex_user "bob"))] [] []).
Proof. vm_compute. reflexivity. Qed.
Example ex_adequate :
  adequate [] [(RVar Principal, ex_trie)]
    (TEGetAttr (TEGetAttr (TEVar Principal None) (s2str "manager") None) (s2str "name") None) = true
  /\ adequate [] [(RVar Principal, ex_trie)]
    (TEGetAttr (TEGetAttr (TEVar Principal None) (s2str "manager") None) (s2str "age") None) = false.
Proof. vm_compute. split; reflexivity. Qed.

(* non-vacuity of the main theorem: the executable slice of the store is a good slice, and the expression reads
   through an entity-valued attribute *)
Definition ex_q : request := mkRequest (ex_user "alice") (mkUid [s2str "Action"] (s2str "view")) (ex_user "doc") [].
Definition ex_es : entities :=
  [ (ex_user "alice", mkEdata [(s2str "age", VLong 3); (s2str "manager", VEntity (ex_user "bob"))] [] [ex_user "g"]);
    (ex_user "bob", mkEdata [(s2str "age", VLong 5); (s2str "name", VString (s2str "b"))] [] []) ].
Definition ex_m : rtrie := [(RVar Principal, ex_trie)].
Definition ex_es' : entities :=
  [ (ex_user "alice", mkEdata [(s2str "manager", VEntity (ex_user "bob"))] [] []);
    (ex_user "bob", mkEdata [(s2str "name", VString (s2str "b"))] [] []) ].
Definition ex_e : texpr :=
  TEBinApp BEq (TEGetAttr (TEGetAttr (TEVar Principal None) (s2str "manager") None) (s2str "name") None)
           (TELit (PString (s2str "b")) None) None.

Example ex_slice_is_executable_slice :
  slice_by_manifest 8 [(request_type ex_q, ex_m)] ex_q ex_es = SOk ex_es'.
Proof. vm_compute. reflexivity. Qed.

Example ex_frag : frag [] ex_m ex_e = Some KExact.
Proof. vm_compute. reflexivity. Qed.

Example ex_good_slice : good_slice ex_q ex_es ex_es' ex_m.
Proof.
  intros r t L. unfold ex_m in L. cbn [lookup_root] in L.
  destruct r as [u|[ | | | ]]; cbn in L; try discriminate L. inversion L; subst t.
  change (root_val ex_q (RVar Principal)) with (VEntity (ex_user "alice")).
  eapply agree_entity; [reflexivity | reflexivity | | apply anc_ok_nil].
  eapply kids_agree_cons; [reflexivity | reflexivity | | exact I].
  eapply agree_entity; [reflexivity | reflexivity | | apply anc_ok_nil].
  eapply kids_agree_cons; [reflexivity | reflexivity | | exact I].
  rewrite agree_eq. reflexivity.
Qed.

Example ex_main_instance :
  eval [] ex_q ex_es' (erase ex_e) = eval [] ex_q ex_es (erase ex_e) /\ eval [] ex_q ex_es (erase ex_e) = Ok (VBool true).
Proof. split; [exact (c17_adequate_sound_partial _ _ _ _ _ _ ex_good_slice ex_frag) | vm_compute; reflexivity]. Qed.
