(* C10.  A value comes back in two steps through CedarValueJson: json_to_cvj reads what the
   serialiser writes as `rval_to_cvj v` (its escapes are the shapes the one-key special case
   recognises; a record without reserved keys is left alone), and cvj_to_rval undoes rval_to_cvj. *)
From Cedar Require Import EntJson BaseFacts.

Lemma rval_ind' (P : rval -> Prop)
  (Hb : forall b, P (RBool b)) (Hl : forall z, P (RLong z)) (Hs : forall s, P (RString s))
  (He : forall u, P (REntity u))
  (Hset : forall l, Forall P l -> P (RSet l))
  (Hrec : forall l, Forall (fun kv => P (snd kv)) l -> P (RRecord l))
  (Hcall : forall f l, Forall P l -> P (RCall f l))
  (v : rval) : P v.
Proof.
  revert v. fix IH 1. intros [b|z|s|u|l|l|f l].
  - apply Hb.
  - apply Hl.
  - apply Hs.
  - apply He.
  - apply Hset. induction l as [|x l IHl]; constructor; [apply IH|exact IHl].
  - apply Hrec. induction l as [|[k x] l IHl]; constructor; [apply IH|exact IHl].
  - apply Hcall. induction l as [|x l IHl]; constructor; [apply IH|exact IHl].
Qed.

Definition is_nil {A} (l : list A) : bool := match l with [] => true | _ => false end.

(* values the JSON layer can meet *)
Fixpoint wf_rval (v : rval) : bool :=
  match v with
  | RLong z => in_i64 z
  | REntity u => valid_name (jty u)
  | RSet l => forallb wf_rval l
  | RRecord l => forallb (fun kv => wf_rval (snd kv)) l
  | RCall f args => valid_name f && negb (is_nil args) && forallb wf_rval args
  | _ => true
  end.

(* the part of wf_rval that serialisation depends on: a call without arguments is refused with
   an error of its own *)
Fixpoint calls_nonempty (v : rval) : bool :=
  match v with
  | RSet l => forallb calls_nonempty l
  | RRecord l => forallb (fun kv => calls_nonempty (snd kv)) l
  | RCall f args => negb (is_nil args) && forallb calls_nonempty args
  | _ => true
  end.

Fixpoint has_reserved (v : rval) : bool :=
  match v with
  | RSet l => existsb has_reserved l
  | RRecord l => existsb reserved_key (map fst l) || existsb (fun kv => has_reserved (snd kv)) l
  | RCall _ args => existsb has_reserved args
  | _ => false
  end.

Fixpoint rval_to_cvj (v : rval) : cvj :=
  match v with
  | RBool b => CBool b
  | RLong z => CLong z
  | RString s => CString s
  | REntity u => CEntity (jty u) (jid u)
  | RSet l => CSet (map rval_to_cvj l)
  | RRecord l => CRecord (map (fun kv => (fst kv, rval_to_cvj (snd kv))) l)
  | RCall f args => CExtn f (map rval_to_cvj args)
  end.

Lemma jbind_ok {A B} (r : jr A) (k : A -> jr B) z :
  (dj x <- r; k x) = JOk z -> exists x, r = JOk x /\ k x = JOk z.
Proof. destruct r as [x|e]; [|discriminate]. intros H. exists x. split; [reflexivity|exact H]. Qed.

Lemma jmapM_nil {A B} (f : A -> jr B) : jmapM f [] = JOk [].
Proof. reflexivity. Qed.

Lemma jmapM_cons {A B} (f : A -> jr B) x l :
  jmapM f (x :: l) = (dj y <- f x; dj ys <- jmapM f l; JOk (y :: ys)).
Proof. reflexivity. Qed.

Lemma jmapM_ok_map {A B C} {f : A -> jr B} {g : B -> jr C} {h : A -> C} {l} :
  Forall (fun x => forall y, f x = JOk y -> g y = JOk (h x)) l ->
  forall ys, jmapM f l = JOk ys -> jmapM g ys = JOk (map h l).
Proof.
  induction 1 as [|x l Hx Hl IH]; intros ys Hys.
  - injection Hys as <-. reflexivity.
  - rewrite jmapM_cons in Hys. apply jbind_ok in Hys as (y & Ey & Hys).
    apply jbind_ok in Hys as (ys' & El & Hys). injection Hys as <-.
    cbn [map]. rewrite jmapM_cons, (Hx y Ey). cbn [jbind]. rewrite (IH ys' El). reflexivity.
Qed.

Lemma jmapV_ok_map {A B C} {f : A -> jr B} {g : B -> jr C} {h : A -> C} {l} :
  Forall (fun kv => forall y, f (snd kv) = JOk y -> g y = JOk (h (snd kv))) l ->
  forall ys, jmapV f l = JOk ys -> jmapV g ys = JOk (map (fun kv => (fst kv, h (snd kv))) l).
Proof.
  intros H. apply jmapM_ok_map. revert H. apply Forall_impl. intros kv Hkv ky Hky.
  apply jbind_ok in Hky as (y & Ey & Hky). injection Hky as <-. cbn [fst snd].
  rewrite (Hkv y Ey). reflexivity.
Qed.

Lemma jmapM_map_id {A B} {g : B -> jr A} {h : A -> B} {l} :
  Forall (fun x => g (h x) = JOk x) l -> jmapM g (map h l) = JOk l.
Proof.
  induction 1 as [|x l Hx Hl IH]; [reflexivity|].
  cbn [map]. rewrite jmapM_cons, Hx. cbn [jbind]. rewrite IH. reflexivity.
Qed.

Lemma jmapV_map_id {A B} {g : B -> jr A} {h : A -> B} {l : list (str * A)} :
  Forall (fun kv => g (h (snd kv)) = JOk (snd kv)) l ->
  jmapV g (map (fun kv => (fst kv, h (snd kv))) l) = JOk l.
Proof.
  intros H. apply (jmapM_map_id (h := fun kv => (fst kv, h (snd kv)))). revert H. apply Forall_impl.
  intros [k x] Hx. cbn [fst snd] in *. rewrite Hx. reflexivity.
Qed.

Lemma Forall_wf {A} (P : A -> Prop) (Q : A -> Prop) (w : A -> bool) l :
  Forall (fun x => w x = true -> P x) l -> forallb w l = true -> Forall P l.
Proof. apply Forall_forallb_mp. Qed.

(* an object is first read as a record; only a one-key record whose key is reserved is turned
   into an escape afterwards *)
Lemma json_to_cvj_record l cs :
  jmapV json_to_cvj l = JOk cs -> existsb reserved_key (map fst cs) = false ->
  json_to_cvj (JObj l) = JOk (CRecord cs).
Proof.
  intros E H. destruct cs as [|[k c] [|kc cs]].
  - cbn [json_to_cvj]. rewrite E. reflexivity.
  - cbn [map fst existsb] in H. rewrite orb_false_r in H.
    destruct (orb_false_elim _ _ H) as [H' Hexpr]. destruct (orb_false_elim _ _ H') as [Hent Hextn].
    cbn [json_to_cvj]. rewrite E. cbn [jbind]. destruct c; try reflexivity.
    + rewrite Hexpr. reflexivity.
    + rewrite Hextn, Hent. reflexivity.
  - cbn [json_to_cvj]. rewrite E. destruct c; reflexivity.
Qed.

Lemma json_to_cvj_entity u : json_to_cvj (JObj [(k_entity, juid_json u)]) = JOk (CEntity (jty u) (jid u)).
Proof. reflexivity. Qed.

Lemma json_to_cvj_extn_arg f j :
  json_to_cvj (JObj [(k_extn, JObj [(k_fn, JStr f); (k_arg, j)])]) = (dj c <- json_to_cvj j; JOk (CExtn f [c])).
Proof. cbn [json_to_cvj jmapV jmapM fst snd]. destruct (json_to_cvj j); reflexivity. Qed.

Lemma json_to_cvj_extn_args f js :
  json_to_cvj (JObj [(k_extn, JObj [(k_fn, JStr f); (k_args, JArr js)])]) =
  (dj cs <- jmapM json_to_cvj js; JOk (CExtn f cs)).
Proof. cbn [json_to_cvj jmapV jmapM fst snd]. destruct (jmapM json_to_cvj js); reflexivity. Qed.

(* a call with one argument is written with `arg`, one with more with `args` *)
Lemma value_to_json_call_args f a b l :
  value_to_json (RCall f (a :: b :: l)) =
  (dj js <- jmapM value_to_json (a :: b :: l);
   JOk (JObj [(k_extn, JObj [(k_fn, JStr f); (k_args, JArr js)])])).
Proof. reflexivity. Qed.

Lemma json_to_cvj_written : forall v, wf_rval v = true ->
  forall j, value_to_json v = JOk j -> json_to_cvj j = JOk (rval_to_cvj v).
Proof.
  induction v as [b|z|s|u|l IH|l IH|f l IH] using rval_ind'; intros Hwf j Hj.
  - injection Hj as <-. reflexivity.
  - injection Hj as <-. cbn [wf_rval] in Hwf. cbn [json_to_cvj]. rewrite Hwf. reflexivity.
  - injection Hj as <-. reflexivity.
  - injection Hj as <-. apply json_to_cvj_entity.
  - cbn [value_to_json wf_rval] in *. apply jbind_ok in Hj as (js & E & Hj). injection Hj as <-.
    cbn [json_to_cvj]. rewrite (jmapM_ok_map (Forall_forallb_mp IH Hwf) _ E). reflexivity.
  - cbn [value_to_json wf_rval] in *.
    destruct (existsb reserved_key (map fst l)) eqn:Hres; [discriminate|].
    apply jbind_ok in Hj as (js & E & Hj). injection Hj as <-.
    apply json_to_cvj_record with (1 := jmapV_ok_map (Forall_forallb_mp IH Hwf) _ E).
    rewrite map_map. exact Hres.
  - cbn [wf_rval] in Hwf. apply andb_true_iff in Hwf as [Hwf Hargs]. apply andb_true_iff in Hwf as [_ Hnn].
    pose proof (Forall_forallb_mp IH Hargs) as HF. destruct l as [|a [|b l]].
    + discriminate.
    + cbn [value_to_json] in Hj. apply jbind_ok in Hj as (ja & Ea & Hj). injection Hj as <-.
      rewrite json_to_cvj_extn_arg, (Forall_inv HF ja Ea). reflexivity.
    + rewrite value_to_json_call_args in Hj. apply jbind_ok in Hj as (js & E & Hj). injection Hj as <-.
      rewrite json_to_cvj_extn_args, (jmapM_ok_map HF _ E). reflexivity.
Qed.

Lemma cvj_to_rval_to_cvj : forall v, wf_rval v = true -> cvj_to_rval (rval_to_cvj v) = JOk v.
Proof.
  induction v as [b|z|s|u|l IH|l IH|f l IH] using rval_ind'; intros Hwf; try reflexivity.
  - destruct u as [t i]. cbn in *. rewrite Hwf. reflexivity.
  - cbn [rval_to_cvj cvj_to_rval wf_rval] in *.
    rewrite (jmapM_map_id (Forall_forallb_mp IH Hwf)). reflexivity.
  - cbn [rval_to_cvj cvj_to_rval wf_rval] in *.
    rewrite (jmapV_map_id (Forall_forallb_mp IH Hwf)). reflexivity.
  - cbn [rval_to_cvj cvj_to_rval wf_rval] in *.
    apply andb_true_iff in Hwf as [Hwf Hargs]. apply andb_true_iff in Hwf as [Hname _].
    rewrite Hname, (jmapM_map_id (Forall_forallb_mp IH Hargs)). reflexivity.
Qed.

Lemma value_rt : forall v j, wf_rval v = true -> value_to_json v = JOk j -> json_to_value None j = JOk v.
Proof.
  intros v j Hwf Hj. unfold json_to_value, parse_generic.
  rewrite (json_to_cvj_written v Hwf j Hj). cbn [jbind]. apply cvj_to_rval_to_cvj. exact Hwf.
Qed.

Definition refused_iff (b : bool) {A} (r : jr A) : Prop :=
  if b then r = JErr EReservedKey else exists y, r = JOk y.

Lemma refused_bind b {A B} (r : jr A) (k : A -> B) :
  refused_iff b r -> refused_iff b (dj y <- r; JOk (k y)).
Proof.
  destruct b; cbn [refused_iff].
  - intros ->. reflexivity.
  - intros [y ->]. eexists. reflexivity.
Qed.

Lemma refused_jmapM {A B} (f : A -> jr B) (hr : A -> bool) l :
  Forall (fun x => refused_iff (hr x) (f x)) l -> refused_iff (existsb hr l) (jmapM f l).
Proof.
  induction 1 as [|x l Hx Hl IH].
  - exists []. reflexivity.
  - cbn [existsb]. rewrite jmapM_cons. destruct (hr x); cbn [refused_iff orb] in *.
    + rewrite Hx. reflexivity.
    + destruct Hx as [y ->]. apply (refused_bind _ _ (cons y)). exact IH.
Qed.

Lemma refused_jmapV {A B} (f : A -> jr B) (hr : A -> bool) (l : list (str * A)) :
  Forall (fun kv => refused_iff (hr (snd kv)) (f (snd kv))) l ->
  refused_iff (existsb (fun kv => hr (snd kv)) l) (jmapV f l).
Proof.
  intros H. apply refused_jmapM. revert H. apply Forall_impl. intros kv. apply refused_bind.
Qed.

Lemma ser_cases : forall v, calls_nonempty v = true -> refused_iff (has_reserved v) (value_to_json v).
Proof.
  induction v as [b|z|s|u|l IH|l IH|f l IH] using rval_ind'; intros Hc; try (eexists; reflexivity).
  - apply refused_bind, refused_jmapM, (Forall_forallb_mp IH Hc).
  - cbn [has_reserved value_to_json]. destruct (existsb reserved_key (map fst l)); [reflexivity|].
    apply refused_bind, refused_jmapV, (Forall_forallb_mp IH Hc).
  - cbn [calls_nonempty] in Hc. apply andb_true_iff in Hc as [Hnn Hc].
    pose proof (Forall_forallb_mp IH Hc) as HF. destruct l as [|a [|b l]].
    + discriminate.
    + cbn [has_reserved existsb]. rewrite orb_false_r. apply refused_bind, (Forall_inv HF).
    + rewrite value_to_json_call_args. apply refused_bind, refused_jmapM, HF.
Qed.

Lemma reserved_iff : forall v, calls_nonempty v = true ->
  ((exists e, value_to_json v = JErr e) <-> has_reserved v = true) /\
  (forall e, value_to_json v = JErr e -> e = EReservedKey).
Proof.
  intros v Hc. pose proof (ser_cases v Hc) as H. destruct (has_reserved v); cbn [refused_iff] in H.
  - rewrite H. split.
    + split; [reflexivity|]. intros _. eexists. reflexivity.
    + intros e He. injection He as <-. reflexivity.
  - destruct H as [j ->]. split.
    + split; [|discriminate]. intros [e He]. discriminate.
    + discriminate.
Qed.

Lemma context_as_record : forall pairs, context_to_json pairs = value_to_json (RRecord pairs).
Proof. intros pairs. reflexivity. Qed.

Lemma parse_entity_ref_juid u :
  parse_entity_ref (juid_json u) = if valid_name (jty u) then JOk u else JErr EParseEscape.
Proof. destruct u. reflexivity. Qed.

Lemma parse_entity_ref_escape u :
  parse_entity_ref (JObj [(k_entity, juid_json u)]) = if valid_name (jty u) then JOk u else JErr EParseEscape.
Proof. destruct u. reflexivity. Qed.

Definition wf_pairs (l : list (str * rval)) : bool :=
  forallb (fun kv => wf_rval (snd kv) && rval_evaluable (snd kv)) l.

(* an entity as a store holds it *)
Definition wf_entity (e : jentity) : bool :=
  valid_name (jty (je_uid e)) && wf_pairs (je_attrs e) && wf_pairs (je_tags e) &&
  forallb (fun p => valid_name (jty p) &&
                    (negb (is_action_type (jty (je_uid e))) || is_action_type (jty p))) (je_anc e).

Lemma emapM_nil {A B} (f : A -> er B) : emapM f [] = EOk [].
Proof. reflexivity. Qed.
Lemma emapM_cons {A B} (f : A -> er B) x l :
  emapM f (x :: l) = (de y <- f x; de ys <- emapM f l; EOk (y :: ys)).
Proof. reflexivity. Qed.

Lemma jmapM_emapM_back {A B} (f : A -> jr B) (g : B -> er A) l :
  Forall (fun x => forall y, f x = JOk y -> g y = EOk x) l ->
  forall ys, jmapM f l = JOk ys -> emapM g ys = EOk l.
Proof.
  induction 1 as [|x l Hx Hl IH]; intros ys Hys.
  - injection Hys as <-. reflexivity.
  - rewrite jmapM_cons in Hys. apply jbind_ok in Hys as (y & Ey & Hys).
    apply jbind_ok in Hys as (ys' & El & Hys). injection Hys as <-.
    rewrite emapM_cons, (Hx y Ey). cbn [ebind]. rewrite (IH ys' El). reflexivity.
Qed.

Lemma pairs_back l js :
  wf_pairs l = true -> jmapV value_to_json l = JOk js -> emapM (parse_attr NoSchemaInfo) js = EOk l.
Proof.
  intros Hwf. apply jmapM_emapM_back. apply Forall_forall. intros [k v] Hin kj Hkj.
  apply (proj1 (forallb_forall _ _) Hwf) in Hin. apply andb_true_iff in Hin as [Hv _].
  apply jbind_ok in Hkj as (j & Ej & Hkj). injection Hkj as <-.
  cbn [parse_attr fst snd]. rewrite (value_rt v j Hv Ej : parse_generic j = JOk v). reflexivity.
Qed.

Lemma parents_back : forall uid anc,
  forallb (fun p => valid_name (jty p) && (negb (is_action_type (jty uid)) || is_action_type (jty p))) anc = true ->
  emapM (parse_parent uid) (map juid_json anc) = EOk anc.
Proof.
  intros uid. induction anc as [|p anc IH]; intros H; [reflexivity|].
  cbn [forallb] in H. apply andb_true_iff in H as [Hp Hrest]. apply andb_true_iff in Hp as [Hv Ha].
  cbn [map]. rewrite emapM_cons, (IH Hrest). unfold parse_parent. rewrite parse_entity_ref_juid, Hv. cbn [lift ebind].
  destruct (is_action_type (jty uid)); [cbn [negb orb] in Ha; rewrite Ha|]; reflexivity.
Qed.

Lemma evaluable_pairs : forall l, wf_pairs l = true -> forallb (fun kv => rval_evaluable (snd kv)) l = true.
Proof.
  intros l H. unfold wf_pairs in H. rewrite forallb_forall in *. intros kv Hin.
  specialize (H kv Hin). apply andb_true_iff in H. tauto.
Qed.

(* `tags` is left out when empty, and then read as empty *)
Lemma entity_from_json_fields uj aj pj tj :
  entity_from_json None
    (JObj ((k_attrs, JObj aj) :: (k_parents, JArr pj)
           :: match tj with [] => [] | _ => [(k_tags, JObj tj)] end ++ [(k_uid, uj)])) =
  (de uid <- lift (parse_entity_ref uj);
   de attrs <- emapM (parse_attr NoSchemaInfo) aj;
   de tags <- emapM (parse_tag NoSchemaInfo) tj;
   de parents <- emapM (parse_parent uid) pj;
   if forallb (fun kv => rval_evaluable (snd kv)) attrs && forallb (fun kv => rval_evaluable (snd kv)) tags
   then EOk (mkJentity uid attrs tags parents) else EErr (EJ EEval)).
Proof. destruct tj; reflexivity. Qed.

Lemma entity_rt : forall e j, wf_entity e = true -> entity_to_json e = JOk j -> entity_from_json None j = EOk e.
Proof.
  intros [uid attrs tags anc] j Hwf Hj. unfold wf_entity in Hwf. cbn [je_uid je_attrs je_tags je_anc] in Hwf.
  apply andb_true_iff in Hwf as [Hwf Hanc]. apply andb_true_iff in Hwf as [Hwf Htags].
  apply andb_true_iff in Hwf as [Huid Hattrs].
  unfold entity_to_json in Hj. cbn [je_uid je_attrs je_tags je_anc] in Hj.
  apply jbind_ok in Hj as (ajs & Ea & Hj). apply jbind_ok in Hj as (tjs & Et & Hj). injection Hj as <-.
  rewrite entity_from_json_fields, parse_entity_ref_juid, Huid. cbn [lift ebind].
  rewrite (pairs_back attrs ajs Hattrs Ea). cbn [ebind].
  (* without schema information a tag is parsed like an attribute *)
  rewrite (pairs_back tags tjs Htags Et : emapM (parse_tag NoSchemaInfo) tjs = EOk tags). cbn [ebind].
  rewrite (parents_back uid anc Hanc). cbn [ebind].
  rewrite (evaluable_pairs attrs Hattrs), (evaluable_pairs tags Htags). reflexivity.
Qed.

Inductive variant : sty -> rval -> json -> Prop :=
| V_bool b : variant STBool (RBool b) (JBool b)
| V_long z : in_i64 z = true -> variant STLong (RLong z) (JInt z)
| V_string s : variant STString (RString s) (JStr s)
| V_ent_impl t u : valid_name (jty u) = true -> variant (STEntity t) (REntity u) (juid_json u)
| V_ent_expl t u : valid_name (jty u) = true ->
    variant (STEntity t) (REntity u) (JObj [(k_entity, juid_json u)])
| V_ext_bare n c s : In (n, c) ext_constructors -> variant (STExt n) (RCall c [RString s]) (JStr s)
| V_ext_fnarg n c s : In (n, c) ext_constructors ->
    variant (STExt n) (RCall c [RString s]) (JObj [(k_fn, JStr c); (k_arg, JStr s)])
| V_ext_expl n c s : In (n, c) ext_constructors ->
    variant (STExt n) (RCall c [RString s]) (JObj [(k_extn, JObj [(k_fn, JStr c); (k_arg, JStr s)])])
| V_set e vs js : Forall2 (variant e) vs js -> variant (STSet e) (RSet vs) (JArr js)
| V_rec attrs fs o : NoDup (map fst attrs) -> rec_variant attrs fs o ->
    variant (STRecord attrs false) (RRecord fs) (JObj o)
with rec_variant : list (str * (sty * bool)) -> list (str * rval) -> list (str * json) -> Prop :=
| RV_nil : rec_variant [] [] []
| RV_present k t req attrs v j fs o :
    variant t v j -> rec_variant attrs fs o ->
    rec_variant ((k, (t, req)) :: attrs) ((k, v) :: fs) ((k, j) :: o)
| RV_absent k t attrs fs o :
    lookup k o = None -> rec_variant attrs fs o ->
    rec_variant ((k, (t, false)) :: attrs) fs o.

Lemma parse_ty_entity_implicit t u :
  valid_name (jty u) = true -> parse_ty (STEntity t) (juid_json u) = JOk (REntity u).
Proof. intros H. cbn [parse_ty]. rewrite parse_entity_ref_juid, H. reflexivity. Qed.

Lemma parse_ty_entity_escape t u :
  valid_name (jty u) = true -> parse_ty (STEntity t) (JObj [(k_entity, juid_json u)]) = JOk (REntity u).
Proof. intros H. cbn [parse_ty]. rewrite parse_entity_ref_escape, H. reflexivity. Qed.

Lemma parse_ext_bare n s :
  parse_ext n (JStr s) =
  match lookup n ext_constructors with
  | Some c => JOk (RCall c [RString s])
  | None => JErr EMissingImplied
  end.
Proof. reflexivity. Qed.

Lemma parse_ext_fnarg n c s :
  parse_ext n (JObj [(k_fn, JStr c); (k_arg, JStr s)]) =
  if valid_name c then if known_fn c then JOk (RCall c [RString s]) else JErr EFnLookup
  else JErr EParseEscape.
Proof. reflexivity. Qed.

Lemma parse_ext_escape n c s :
  parse_ext n (JObj [(k_extn, JObj [(k_fn, JStr c); (k_arg, JStr s)])]) =
  parse_ext n (JObj [(k_fn, JStr c); (k_arg, JStr s)]).
Proof. reflexivity. Qed.

Lemma ext_constructors_known n c : In (n, c) ext_constructors ->
  lookup n ext_constructors = Some c /\ valid_name c = true /\ known_fn c = true.
Proof.
  intros H. repeat split.
  - apply nodup_In_lookup; [reflexivity | exact H].
  - exact (proj1 (forallb_forall (fun p => valid_name (snd p)) ext_constructors) eq_refl (n, c) H).
  - apply existsb_exists. exists (n, c). split; [exact H | apply str_eqb_refl].
Qed.

Lemma parse_ty_ext_bare n c s :
  In (n, c) ext_constructors -> parse_ty (STExt n) (JStr s) = JOk (RCall c [RString s]).
Proof.
  intros Hin. destruct (ext_constructors_known n c Hin) as (Hl & _).
  cbn [parse_ty]. rewrite parse_ext_bare, Hl. reflexivity.
Qed.

Lemma parse_ty_ext_fnarg n c s :
  In (n, c) ext_constructors ->
  parse_ty (STExt n) (JObj [(k_fn, JStr c); (k_arg, JStr s)]) = JOk (RCall c [RString s]).
Proof.
  intros Hin. destruct (ext_constructors_known n c Hin) as (_ & Hv & Hk).
  cbn [parse_ty]. rewrite parse_ext_fnarg, Hv, Hk. reflexivity.
Qed.

Lemma parse_ty_ext_escape n c s :
  In (n, c) ext_constructors ->
  parse_ty (STExt n) (JObj [(k_extn, JObj [(k_fn, JStr c); (k_arg, JStr s)])]) = JOk (RCall c [RString s]).
Proof. intros Hin. cbn [parse_ty]. rewrite parse_ext_escape. exact (parse_ty_ext_fnarg n c s Hin). Qed.

(* the loop of parse_ty at a record type over the declared attributes *)
Definition rec_go (o : list (str * json)) : list (str * (sty * bool)) -> jr (list (str * rval)) :=
  fix go (l : list (str * (sty * bool))) : jr (list (str * rval)) :=
    match l with
    | [] => JOk []
    | (k, (t', req)) :: l' =>
        match lookup k o with
        | Some x => dj v <- parse_ty t' x; dj vs <- go l'; JOk ((k, v) :: vs)
        | None => if req then JErr EMissingRequiredRecordAttr else go l'
        end
    end.

Lemma parse_ty_record attrs open o :
  parse_ty (STRecord attrs open) (JObj o) =
  (dj vs <- rec_go o attrs;
   if negb open && existsb (fun kv => negb (has_key (fst kv) attrs)) o
   then JErr EUnexpectedRecordAttr else JOk (RRecord vs)).
Proof. reflexivity. Qed.

Lemma rec_go_present o k t req attrs x v vs :
  lookup k o = Some x -> parse_ty t x = JOk v -> rec_go o attrs = JOk vs ->
  rec_go o ((k, (t, req)) :: attrs) = JOk ((k, v) :: vs).
Proof.
  intros Hk Hv Hvs. cbn [rec_go]. fold (rec_go o). rewrite Hk, Hv. cbn [jbind]. rewrite Hvs. reflexivity.
Qed.

Lemma rec_go_absent o k t attrs :
  lookup k o = None -> rec_go o ((k, (t, false)) :: attrs) = rec_go o attrs.
Proof. intros Hk. cbn [rec_go]. rewrite Hk. reflexivity. Qed.

Lemma rec_variant_keys : forall attrs fs o, rec_variant attrs fs o ->
  forall kv, In kv o -> has_key (fst kv) attrs = true.
Proof.
  intros attrs fs o H. induction H as [|k t req attrs v j fs o Hv Hr IH|k t attrs fs o Hk Hr IH]; intros kv Hin.
  - destruct Hin.
  - destruct Hin as [E|Hin].
    + subst kv. cbn [fst]. unfold has_key. cbn [lookup]. rewrite str_eqb_refl. reflexivity.
    + apply has_key_cons. apply IH. exact Hin.
  - apply has_key_cons. apply IH. exact Hin.
Qed.

Lemma parse_ty_closed_record attrs fs o :
  rec_variant attrs fs o -> rec_go o attrs = JOk fs ->
  parse_ty (STRecord attrs false) (JObj o) = JOk (RRecord fs).
Proof.
  intros Hrv Hgo. rewrite parse_ty_record, Hgo. cbn [jbind negb andb].
  destruct (existsb (fun kv => negb (has_key (fst kv) attrs)) o) eqn:E; [|reflexivity].
  apply existsb_exists in E. destruct E as [kv [Hin Hneg]].
  rewrite (rec_variant_keys attrs fs o Hrv kv Hin) in Hneg. discriminate.
Qed.

Lemma parse_ty_long z : in_i64 z = true -> parse_ty STLong (JInt z) = JOk (RLong z).
Proof.
  intros Hz. change (parse_ty STLong (JInt z)) with (parse_generic (JInt z)).
  unfold parse_generic. cbn [json_to_cvj]. rewrite Hz. reflexivity.
Qed.

Lemma parse_ty_set e vs js :
  jmapM (parse_ty e) js = JOk vs -> parse_ty (STSet e) (JArr js) = JOk (RSet vs).
Proof. intros H. cbn [parse_ty]. rewrite H. reflexivity. Qed.

(* The attribute loop looks keys up in the whole object `ofull` while the derivation peels
   entries off `o`: on the attributes still to come the two agree. *)
Lemma variant_parse : forall t v j, variant t v j -> parse_ty t j = JOk v
with rec_go_ok : forall attrs fs o, rec_variant attrs fs o ->
  forall ofull, NoDup (map fst attrs) ->
  (forall k, In k (map fst attrs) -> lookup k ofull = lookup k o) ->
  rec_go ofull attrs = JOk fs.
Proof.
  - intros t v j Hv.
    destruct Hv as [b|z Hz|s|t u Hu|t u Hu|n c s Hin|n c s Hin|n c s Hin|e vs js HF2|attrs fs o Hnd Hrv].
    + reflexivity.
    + apply parse_ty_long, Hz.
    + reflexivity.
    + apply parse_ty_entity_implicit, Hu.
    + apply parse_ty_entity_escape, Hu.
    + apply parse_ty_ext_bare, Hin.
    + apply parse_ty_ext_fnarg, Hin.
    + apply parse_ty_ext_escape, Hin.
    + apply parse_ty_set. induction HF2 as [|x y xs ys Hxy HF2 IH]; [reflexivity|].
      rewrite jmapM_cons, (variant_parse e x y Hxy), IH. reflexivity.
    + apply (parse_ty_closed_record attrs fs o Hrv).
      exact (rec_go_ok attrs fs o Hrv o Hnd (fun k _ => eq_refl)).
  - intros attrs fs o H.
    destruct H as [|k t req attrs v j fs o Hv Hr|k t attrs fs o Hk Hr]; intros ofull Hnd Hinv;
      [reflexivity| |]; cbn [map fst] in Hnd; apply NoDup_cons_iff in Hnd as [Hnotin Hnd].
    + apply (rec_go_present ofull k t req attrs j).
      * rewrite (Hinv k (or_introl eq_refl)). cbn [lookup]. rewrite str_eqb_refl. reflexivity.
      * exact (variant_parse t v j Hv).
      * apply (rec_go_ok attrs fs o Hr ofull Hnd). intros k' Hin.
        rewrite (Hinv k' (or_intror Hin)). apply lookup_cons_ne. intros ->. contradiction.
    + rewrite rec_go_absent by (rewrite (Hinv k (or_introl eq_refl)); exact Hk).
      apply (rec_go_ok attrs fs o Hr ofull Hnd). intros k' Hin. apply Hinv. right. exact Hin.
Qed.

Lemma juid_eqb_eq a b : juid_eqb a b = true <-> a = b.
Proof.
  destruct a as [t i], b as [t' i']. unfold juid_eqb. cbn [jty jid]. rewrite andb_true_iff, !str_eqb_eq.
  split; [intros [-> ->]; reflexivity | intros H; inversion H; auto].
Qed.

Lemma juid_mem_In u l : juid_mem u l = true <-> In u l.
Proof. exact (existsb_eqb_In juid_eqb juid_eqb_eq u l). Qed.

Lemma juid_dedup_In u l : In u (juid_dedup l) <-> In u l.
Proof.
  induction l as [|x l IH]; [tauto|]. cbn [juid_dedup]. destruct (juid_mem x l) eqn:E.
  - rewrite IH. split; [right; assumption|]. intros [->|H]; [apply juid_mem_In; exact E | exact H].
  - cbn [In]. rewrite IH. tauto.
Qed.

Definition closed_set (st : list jentity) (a : list juid) : Prop :=
  forall p e', In p a -> find_entity p st = Some e' -> incl (je_anc e') a.

Definition same_set (a b : list juid) : Prop := forall u, In u a <-> In u b.

Lemma same_set_sym a b : same_set a b -> same_set b a.
Proof. intros H u. symmetry. apply H. Qed.

Lemma same_set_trans a b c : same_set a b -> same_set b c -> same_set a c.
Proof. intros H1 H2 u. rewrite (H1 u). apply H2. Qed.

Lemma juid_dedup_same l : same_set (juid_dedup l) l.
Proof. intros u. apply juid_dedup_In. Qed.

Lemma closed_same st a b : same_set a b -> closed_set st a -> closed_set st b.
Proof.
  intros Hs Hc p e' Hp Hf u Hu. apply Hs. apply (Hc p e'); [apply Hs; exact Hp | exact Hf | exact Hu].
Qed.

Lemma anc_step_same st a : closed_set st a -> same_set (anc_step st a) a.
Proof.
  intros Hc u. unfold anc_step. rewrite juid_dedup_In, in_app_iff. split; [|tauto].
  intros [H|H]; [exact H|]. apply in_flat_map in H. destruct H as [p [Hp Hu]].
  destruct (find_entity p st) as [e'|] eqn:Ef; [|destruct Hu].
  exact (Hc p e' Hp Ef u Hu).
Qed.

Lemma anc_iter_same st : forall n a, closed_set st a -> same_set (anc_iter n st a) a.
Proof.
  induction n as [|n IH]; intros a Hc; [intros u; reflexivity|].
  cbn [anc_iter]. pose proof (anc_step_same st a Hc) as Hs.
  apply (same_set_trans _ (anc_step st a)); [|exact Hs].
  apply IH. apply (closed_same st a); [apply same_set_sym, Hs | exact Hc].
Qed.

(* a store as Entities holds it *)
Definition store_ok (st : list jentity) : Prop :=
  Forall (fun e => wf_entity e = true) st /\ has_dup_uid st = false /\
  Forall (fun e => closed_set st (je_anc e) /\ ~ In (je_uid e) (je_anc e)) st.

Definition same_entity (e e' : jentity) : Prop :=
  je_uid e' = je_uid e /\ je_attrs e' = je_attrs e /\ je_tags e' = je_tags e /\
  same_set (je_anc e') (je_anc e).

Lemma entities_back : forall st js, Forall (fun e => wf_entity e = true) st ->
  jmapM entity_to_json st = JOk js -> emapM (entity_from_json None) js = EOk st.
Proof.
  intros st js Hwf. apply jmapM_emapM_back. revert Hwf. apply Forall_impl.
  intros e He j. apply entity_rt. exact He.
Qed.

(* what close_store makes of one entity *)
Definition reclose (st : list jentity) (e : jentity) : jentity :=
  mkJentity (je_uid e) (je_attrs e) (je_tags e) (anc_iter (List.length st) st (juid_dedup (je_anc e))).

Lemma reclose_same st e : closed_set st (je_anc e) -> same_entity e (reclose st e).
Proof.
  intros Hc. repeat (split; [reflexivity|]). cbn [reclose je_anc].
  apply (same_set_trans _ (juid_dedup (je_anc e))); [|apply juid_dedup_same].
  apply anc_iter_same. apply (closed_same st (je_anc e)); [apply same_set_sym, juid_dedup_same | exact Hc].
Qed.

Lemma reclose_all st l :
  Forall (fun e => closed_set st (je_anc e)) l -> Forall2 same_entity l (map (reclose st) l).
Proof.
  induction 1 as [|e l Hc _ IH]; cbn [map]; constructor; [apply reclose_same; exact Hc | exact IH].
Qed.

Lemma close_store_closed st :
  Forall (fun e => closed_set st (je_anc e) /\ ~ In (je_uid e) (je_anc e)) st ->
  close_store st = SOk (map (reclose st) st).
Proof.
  intros Hcl. unfold close_store. fold (reclose st).
  destruct (existsb (fun e => juid_mem (je_uid e) (je_anc e)) (map (reclose st) st)) eqn:E; [|reflexivity].
  exfalso. apply existsb_exists in E as (e' & Hin & Hm). apply in_map_iff in Hin as (e & <- & Hin).
  rewrite Forall_forall in Hcl. destruct (Hcl e Hin) as [Hc Hnc].
  apply Hnc. apply (reclose_same st e Hc). apply juid_mem_In. exact Hm.
Qed.

Lemma store_schema_actions : forall sch acts l st',
  store_from_json (Some sch) acts (JArr l) = SOk st' ->
  exists es closed,
    emapM (entity_from_json (Some sch)) l = EOk es /\ close_store es = SOk closed /\
    st' = filter (fun e => negb (existsb (fun a => juid_eqb (je_uid e) (je_uid a)) acts)) closed ++ acts.
Proof.
  intros sch acts l st' H. unfold store_from_json in H.
  destruct (emapM (entity_from_json (Some sch)) l) as [es|x]; [|discriminate].
  destruct (has_dup_uid es); [discriminate|].
  destruct (close_store es) as [closed|x] eqn:Ec; [|discriminate].
  inversion H. exists es, closed. auto.
Qed.

Lemma store_schema_actions_in : forall sch acts l st',
  store_from_json (Some sch) acts (JArr l) = SOk st' ->
  incl acts st' /\
  (forall e, In e st' -> In e acts \/
     (forall a, In a acts -> je_uid a <> je_uid e)).
Proof.
  intros sch acts l st' H. destruct (store_schema_actions sch acts l st' H) as [es [closed [_ [_ ->]]]]. split.
  - intros a Ha. apply in_or_app. right. exact Ha.
  - intros e He. apply in_app_or in He. destruct He as [He|He]; [right|left; exact He].
    apply filter_In in He. destruct He as [_ Hn]. intros a Ha Eq.
    apply negb_true_iff in Hn. assert (Ht : existsb (fun a0 => juid_eqb (je_uid e) (je_uid a0)) acts = true).
    { apply existsb_exists. exists a. split; [exact Ha | apply juid_eqb_eq; symmetry; exact Eq]. }
    rewrite Ht in Hn. discriminate.
Qed.
