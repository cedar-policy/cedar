From Cedar Require Import Eval BaseFacts.

Lemma as_bool_nonbool v : (forall x, v <> VBool x) -> as_bool v = Err ErrType.
Proof. destruct v as [[x| | |]| | |]; try reflexivity. intros N; destruct (N x eq_refl). Qed.

Lemma as_long_nonlong v : (forall x, v <> VLong x) -> as_long v = Err ErrType.
Proof. destruct v as [[ |x| |]| | |]; try reflexivity. intros N; destruct (N x eq_refl). Qed.

Lemma as_entity_nonentity v : (forall x, v <> VEntity x) -> as_entity v = Err ErrType.
Proof. destruct v as [[ | | |x]| | |]; try reflexivity. intros N; destruct (N x eq_refl). Qed.

(* the common shape of the if, && and || arms of `eval`; unfolded, the equations below are those arms *)
Definition branch (r t f : res value) : res value :=
  do v <- r; do b <- as_bool v; if b then t else f.

Definition as_boolean (r : res value) : res value :=
  do v <- r; do y <- as_bool v; Ok (VBool y).

Lemma branch_true r t f : r = Ok (VBool true) -> branch r t f = t.
Proof. intros ->; reflexivity. Qed.

Lemma branch_false r t f : r = Ok (VBool false) -> branch r t f = f.
Proof. intros ->; reflexivity. Qed.

Lemma branch_err r t f e : r = Err e -> branch r t f = Err e.
Proof. intros ->; reflexivity. Qed.

Lemma branch_nonbool r t f v : r = Ok v -> (forall x, v <> VBool x) -> branch r t f = Err ErrType.
Proof. intros -> N. unfold branch; cbn [bind]. rewrite (as_bool_nonbool v N). reflexivity. Qed.

Lemma as_boolean_cases r :
  as_boolean r = match r with
                 | Ok (VPrim (PBool y)) => Ok (VBool y)
                 | Ok _ => Err ErrType
                 | Err e => Err e
                 end.
Proof. destruct r as [[[ | | | ]| | | ]|]; reflexivity. Qed.

Lemma as_boolean_idem r : as_boolean (as_boolean r) = as_boolean r.
Proof. destruct r as [[[ | | | ]| | | ]|]; reflexivity. Qed.

Lemma binary_arith_type_error op va vb :
  (forall x, va <> VLong x) \/ (forall y, vb <> VLong y) -> binary_arith op va vb = Err ErrType.
Proof.
  unfold binary_arith. intros [N|N].
  - rewrite (as_long_nonlong va N). reflexivity.
  - rewrite (as_long_nonlong vb N). destruct va as [[ | | | ]| | | ]; reflexivity.
Qed.

Lemma mapM_as_entity (us : list uid) : mapM as_entity (map VEntity us) = Ok us.
Proof. apply mapM_map_ok, Forall_forall. reflexivity. Qed.

Lemma mapM_as_entity_bad l v :
  In v l -> (forall x, v <> VEntity x) -> mapM as_entity l = Err ErrType.
Proof.
  intros Hin N. induction l as [|x xs IH]; [destruct Hin|]. cbn [mapM].
  destruct Hin as [->|Hin].
  - rewrite (as_entity_nonentity v N). reflexivity.
  - rewrite (IH Hin). destruct x as [[ | | |w]| | |]; reflexivity.
Qed.

Section Laws.
  Variable sl : slotenv.
  Variable q : request.
  Variable es : entities.
  Notation ev := (eval sl q es).

  Lemma eval_if c t f : ev (If c t f) = branch (ev c) (ev t) (ev f).
  Proof. reflexivity. Qed.

  Lemma eval_and a b : ev (And a b) = branch (ev a) (as_boolean (ev b)) (Ok (VBool false)).
  Proof. reflexivity. Qed.

  Lemma eval_or a b : ev (Or a b) = branch (ev a) (Ok (VBool true)) (as_boolean (ev b)).
  Proof. reflexivity. Qed.

  Lemma eval_unapp op a : ev (UnApp op a) = do v <- ev a; unary_app op v.
  Proof. reflexivity. Qed.

  Lemma eval_binapp op a b : ev (BinApp op a b) = do va <- ev a; do vb <- ev b; binary_app es op va vb.
  Proof. reflexivity. Qed.

  Lemma eval_getattr e a : ev (GetAttr e a) = do v <- ev e; get_attr es v a.
  Proof. reflexivity. Qed.

  Lemma eval_hasattr e a : ev (HasAttr e a) = do v <- ev e; has_attr es v a.
  Proof. reflexivity. Qed.

  Lemma eval_like e p : ev (Like e p) = do v <- ev e; do s <- as_string v; Ok (VBool (wildcard p s)).
  Proof. reflexivity. Qed.

  Lemma eval_is e t : ev (Is e t) = do v <- ev e; do u <- as_entity v; Ok (VBool (name_eqb (uty u) t)).
  Proof. reflexivity. Qed.

  (* the loops local to `eval` for the operands of a set, a call and a record, under a name *)
  Fixpoint eval_list (l : list expr) : res (list value) :=
    match l with
    | [] => Ok []
    | x :: l' => do v <- ev x; do vs <- eval_list l'; Ok (v :: vs)
    end.

  Fixpoint eval_rec (l : list (str * expr)) : res (list (str * value)) :=
    match l with
    | [] => Ok []
    | (k, x) :: l' => do v <- ev x; do kvs <- eval_rec l'; Ok ((k, v) :: kvs)
    end.

  Lemma eval_set l : ev (SetE l) = do vs <- eval_list l; Ok (VSet vs).
  Proof. reflexivity. Qed.

  Lemma eval_ext fn l : ev (ExtCall fn l) = do vs <- eval_list l; call_ext fn vs.
  Proof. reflexivity. Qed.

  Lemma eval_record l : ev (RecordE l) = do kvs <- eval_rec l; Ok (VRecord kvs).
  Proof. reflexivity. Qed.

  Lemma eval_list_cons x l : eval_list (x :: l) = do v <- ev x; do vs <- eval_list l; Ok (v :: vs).
  Proof. reflexivity. Qed.

  Lemma eval_rec_cons k x l : eval_rec ((k, x) :: l) = do v <- ev x; do kvs <- eval_rec l; Ok ((k, v) :: kvs).
  Proof. reflexivity. Qed.

  Lemma eval_list_mapM l : eval_list l = mapM ev l.
  Proof. induction l as [|x l IH]; [reflexivity|]. cbn [mapM]. rewrite <- IH. reflexivity. Qed.

  Lemma eval_rec_mapM l : eval_rec l = do vs <- mapM ev (map snd l); Ok (combine (map fst l) vs).
  Proof.
    induction l as [|[k x] l IH]; [reflexivity|]. rewrite eval_rec_cons, IH. cbn [map mapM fst snd].
    destruct (ev x); [|reflexivity]. cbn [bind]. destruct (mapM ev (map snd l)); reflexivity.
  Qed.

  Lemma eval_set_mapM l : ev (SetE l) = do vs <- mapM ev l; Ok (VSet vs).
  Proof. rewrite eval_set, eval_list_mapM. reflexivity. Qed.

  Lemma eval_ext_mapM fn l : ev (ExtCall fn l) = do vs <- mapM ev l; call_ext fn vs.
  Proof. rewrite eval_ext, eval_list_mapM. reflexivity. Qed.

  Lemma eval_record_mapM l :
    ev (RecordE l) = do vs <- mapM ev (map snd l); Ok (VRecord (combine (map fst l) vs)).
  Proof. rewrite eval_record, eval_rec_mapM. destruct (mapM ev (map snd l)); reflexivity. Qed.

  Lemma eval_mk_and a b : ev (mk_and a b) = ev (And a b).
  Proof. destruct (mk_and_cases a b) as [[x [y [-> ->]]] | ->]; [destruct x, y|]; reflexivity. Qed.

  Lemma eval_mk_or a b : ev (mk_or a b) = ev (Or a b).
  Proof. destruct (mk_or_cases a b) as [[x [y [-> ->]]] | ->]; [destruct x, y|]; reflexivity. Qed.

  Lemma binapp_vals op a b va vb : ev a = Ok va -> ev b = Ok vb -> ev (BinApp op a b) = binary_app es op va vb.
  Proof. intros H1 H2; rewrite eval_binapp, H1, H2; reflexivity. Qed.

  Definition arith (op : binop) (x y : Z) : Z :=
    match op with BAdd => x + y | BSub => x - y | _ => x * y end.

  Lemma arith_exact op a b x y :
    (op = BAdd \/ op = BSub \/ op = BMul) ->
    ev a = Ok (VLong x) -> ev b = Ok (VLong y) ->
    ev (BinApp op a b) = if in_i64 (arith op x y) then Ok (VLong (arith op x y)) else Err ErrOverflow.
  Proof. intros Hop H1 H2. rewrite (binapp_vals _ _ _ _ _ H1 H2). destruct Hop as [-> | [-> | ->]]; reflexivity. Qed.

  Lemma has_attr_get_attr v a :
    has_attr es v a = match get_attr es v a with
                      | Ok _ => Ok (VBool true)
                      | Err ErrType => Err ErrType
                      | Err _ => Ok (VBool false)
                      end.
  Proof.
    destruct v as [[ | | | u] | | r | ]; try reflexivity; cbn [has_attr get_attr]; unfold has_key.
    - destruct (find_entity u es) as [d|]; [destruct (lookup a (eattrs d))|]; reflexivity.
    - destruct (lookup a r); reflexivity.
  Qed.

  Lemma has_attr_iff_get_attr v a :
    has_attr es v a = Ok (VBool true) <-> exists x, get_attr es v a = Ok x.
  Proof.
    rewrite has_attr_get_attr. destruct (get_attr es v a) as [x|err].
    - split; [exists x|]; reflexivity.
    - split; [destruct err; discriminate | intros [x H]; discriminate].
  Qed.

  Lemma has_iff_get e a : ev (HasAttr e a) = Ok (VBool true) <-> exists v, ev (GetAttr e a) = Ok v.
  Proof.
    rewrite eval_hasattr, eval_getattr. destruct (ev e) as [v|err]; [apply has_attr_iff_get_attr|].
    split; [discriminate | intros [x H]; discriminate].
  Qed.

  Lemma hastag_absent_entity e t u k :
    ev e = Ok (VEntity u) -> ev t = Ok (VString k) -> find_entity u es = None ->
    ev (BinApp BHasTag e t) = Ok (VBool false).
  Proof. intros H1 H2 N. rewrite (binapp_vals _ _ _ _ _ H1 H2). cbn. rewrite N. reflexivity. Qed.

  Definition member (u a : uid) : bool :=
    uid_eqb u a || match find_entity u es with Some d => is_descendant_of d a | None => false end.

  Lemma eval_in_entity u a : eval_in es u (VEntity a) = Ok (VBool (member u a)).
  Proof. unfold eval_in, member; cbn. rewrite orb_false_r. reflexivity. Qed.

  Lemma eval_in_entity_set u us : eval_in es u (VSet (map VEntity us)) = Ok (VBool (existsb (member u) us)).
  Proof. unfold eval_in. rewrite mapM_as_entity. reflexivity. Qed.

  Lemma eval_in_set_nonentity u l v :
    In v l -> (forall x, v <> VEntity x) -> eval_in es u (VSet l) = Err ErrType.
  Proof. intros Hin N. unfold eval_in. rewrite (mapM_as_entity_bad l v Hin N). reflexivity. Qed.
End Laws.

Inductive Matches : pattern -> str -> Prop :=
| M_nil : Matches [] []
| M_char c p s : Matches p s -> Matches (PChar c :: p) (c :: s)
| M_star_skip p s : Matches p s -> Matches (PStar :: p) s
| M_star_eat p c s : Matches (PStar :: p) s -> Matches (PStar :: p) (c :: s).

Lemma wildcard_star p s :
  wildcard (PStar :: p) s = wildcard p s || match s with [] => false | _ :: s' => wildcard (PStar :: p) s' end.
Proof. destruct s; reflexivity. Qed.

Theorem wildcard_iff p s : wildcard p s = true <-> Matches p s.
Proof.
  split.
  - revert s. induction p as [|[c|] p IH]; intros s H.
    + destruct s; [constructor | discriminate].
    + destruct s as [|x s]; [discriminate|]. cbn in H. apply andb_prop in H as [H1 H2].
      apply N.eqb_eq in H1; subst. constructor; auto.
    + induction s as [|x s IHs]; rewrite wildcard_star in H.
      * rewrite orb_false_r in H. apply M_star_skip; auto.
      * apply orb_prop in H as [H|H]; [apply M_star_skip | apply M_star_eat]; auto.
  - induction 1.
    + reflexivity.
    + cbn. rewrite N.eqb_refl; assumption.
    + rewrite wildcard_star, IHMatches; reflexivity.
    + rewrite wildcard_star, IHMatches. apply orb_true_r.
Qed.
