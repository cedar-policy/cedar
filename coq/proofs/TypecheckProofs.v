(* TypecheckProofs.v — soundness of the typechecker model `tc` against the model evaluator `eval` (property C03):
   the statement (what is assumed of request and store, what an accepted expression then evaluates to) and its
   proof for one construct at a time, the answers for the subterms given.  `if` and attribute access have files of
   their own; TypecheckMain.v puts the cases together. *)
From Cedar Require Import Typecheck BaseFacts EvalProofs ConformProofs ExprEq TypecheckRules.

(* access paths: a variable followed by attribute selections *)
Fixpoint is_path (e : expr) : bool :=
  match e with
  | Var _ => true
  | GetAttr x _ => is_path x
  | _ => false
  end.

(* some boolean-rooted forms; TypecheckIf.boolish' adds the rest and is what the fragment asks of the branches
   of an `if` *)
Definition boolish (e : expr) : bool :=
  match e with
  | And _ _ | Or _ _ | UnApp UNot _ | BinApp BEq _ _ | HasAttr _ _ | Lit (PBool _) => true
  | _ => false
  end.

(* a capability holds: wherever its expression evaluates, the attribute / tag is there *)
Definition cap_holds (q : request) (es : entities) (c : cap) : Prop :=
  match c with
  | mkCap CAttr x (Lit (PString a)) => forall v, eval [] q es x = Ok v -> has_attr es v a = Ok (VBool true)
  | mkCap CTag x k =>
      forall v kv, eval [] q es x = Ok v -> eval [] q es k = Ok kv -> binary_app es BHasTag v kv = Ok (VBool true)
  | _ => True
  end.
Definition caps_hold (q : request) (es : entities) (cs : caps) : Prop := forall c, In c cs -> cap_holds q es c.

(* the request is one of the request environment *)
Record env_ok (env : reqenv) (q : request) : Prop := {
  eo_p : uty (rprincipal q) = re_principal env;
  eo_a : raction q = re_action env;
  eo_r : uty (rresource q) = re_resource env;
  eo_c : TypeConforms (VRecord (rcontext q)) (re_context env) }.

(* every entity of the store conforms to the schema (declarative specification of Conform.v; equivalent to
   the boolean checker conf_entity by ConformProofs.conf_entity_iff) *)
Definition store_ok (sch : schema) (es : entities) : Prop :=
  forall u d, find_entity u es = Some d -> EntityConforms sch (u, d).

Definition allowed_err (c : err) : Prop := c = ErrEntityMissing \/ c = ErrOverflow \/ c = ErrExt.

(* a type that only `true` inhabits (or nothing) *)
Definition always_true (t : ty) : Prop := t = TBool BTrue \/ t = TNever.

Definition dyn_result (q : request) (es : entities) (e : expr) (t : ty) (cs' : caps) : Prop :=
  (exists c, eval [] q es e = Err c /\ allowed_err c) \/
  (exists v, eval [] q es e = Ok v /\ TypeConforms v t /\ (v = VBool true -> caps_hold q es cs')).

(* the invariant of the induction: the capabilities of a True-typed expression hold unconditionally
   (this is what lets `a || b` with b : True export b's capabilities without evaluating b) *)
Definition sound_result (q : request) (es : entities) (e : expr) (t : ty) (cs' : caps) : Prop :=
  (always_true t -> caps_hold q es cs') /\ dyn_result q es e t cs'.

Definition IHfor (m : vmode) (sch : schema) (env : reqenv) (q : request) (es : entities) (e : expr) : Prop :=
  forall cs t cs', caps_hold q es cs -> tc m sch env cs e = Some (t, cs') -> sound_result q es e t cs'.

Lemma at_true : always_true (TBool BTrue). Proof. left; reflexivity. Qed.
Lemma at_never : always_true TNever. Proof. right; reflexivity. Qed.

Lemma caps_hold_nil q es : caps_hold q es [].
Proof. intros c []. Qed.

Lemma caps_hold_union q es a b : caps_hold q es a -> caps_hold q es b -> caps_hold q es (caps_union a b).
Proof. intros Ha Hb c Hc. apply in_app_or in Hc. destruct Hc; auto. Qed.

Lemma caps_hold_incl q es a b : incl a b -> caps_hold q es b -> caps_hold q es a.
Proof. intros Hi Hb c Hc. apply Hb, Hi, Hc. Qed.

#[export] Hint Resolve at_true at_never caps_hold_nil caps_hold_union : c03.

Lemma conf_never v : ~ TypeConforms v TNever.
Proof. intros H; inversion H. Qed.

Lemma conf_bool v x : TypeConforms v (TBool x) -> exists b, v = VBool b /\
  match x with BAny => True | BTrue => b = true | BFalse => b = false end.
Proof. intros H; inversion H; subst; eauto. Qed.

Lemma bshape_value v t : bshape t -> TypeConforms v t -> exists b, v = VBool b.
Proof.
  intros [[x ->]| ->] Hc; [|exfalso; eapply conf_never; eauto].
  destruct (conf_bool _ _ Hc) as (b & -> & _). eauto.
Qed.

Lemma long_value v t : existsb (subty Permissive t) [TLong] = true -> TypeConforms v t -> exists z, v = VLong z.
Proof. destruct t; cbn; try discriminate; intros _ Hc; inversion Hc; eauto. Qed.

Lemma set_value v t : existsb (subty Permissive t) [ty_any_set] = true -> TypeConforms v t -> exists l, v = VSet l.
Proof. destruct t; cbn; try discriminate; intros _ Hc; inversion Hc; eauto. Qed.

Lemma entity_value v ts : TypeConforms v (TEntity (ELub ts)) -> exists u, v = VEntity u /\ In (uty u) ts.
Proof. intros H; inversion H; subst; eauto. Qed.

Lemma record_value v attrs o : TypeConforms v (TRecord attrs o) -> exists kvs, v = VRecord kvs.
Proof. intros H; inversion H; subst; eauto. Qed.

Lemma vbool_inj a b : VBool a = VBool b -> a = b.
Proof. intros H; inversion H; auto. Qed.

Lemma eval_and q es a b : eval [] q es (And a b) =
  (do va <- eval [] q es a; do x <- as_bool va;
   if x then (do vb <- eval [] q es b; do y <- as_bool vb; Ok (VBool y)) else Ok (VBool false)).
Proof. exact (EvalProofs.eval_and [] q es a b). Qed.
Lemma eval_if q es c x y : eval [] q es (If c x y) =
  (do vc <- eval [] q es c; do b <- as_bool vc; if b then eval [] q es x else eval [] q es y).
Proof. exact (EvalProofs.eval_if [] q es c x y). Qed.

Lemma euid_literal_ty_inv sch u t : euid_literal_ty sch u = Some t -> t = ty_entity (uty u).
Proof.
  unfold euid_literal_ty. destruct (is_action_type (uty u)).
  - destruct (known_action sch u); intros H; inversion H; reflexivity.
  - destruct (find_etype sch (uty u)); intros H; inversion H; reflexivity.
Qed.

Lemma conf_entity_single u : TypeConforms (VEntity u) (ty_entity (uty u)).
Proof. apply TC_entity. left. reflexivity. Qed.

Lemma sound_value q es e v t : eval [] q es e = Ok v -> TypeConforms v t -> sound_result q es e t [].
Proof.
  intros He Hv. split; [intros _; apply caps_hold_nil|].
  right. exists v. split; [exact He|]. split; [exact Hv|intros _; apply caps_hold_nil].
Qed.

Lemma sound_lit m sch env q es p : IHfor m sch env q es (Lit p).
Proof.
  intros cs t cs' _ Htc. rewrite tc_lit in Htc.
  assert (H : cs' = [] /\ TypeConforms (VPrim p) t).
  { destruct p as [b|z|s|u].
    - inversion Htc. split; [reflexivity|destruct b; constructor].
    - inversion Htc. split; [reflexivity|constructor].
    - inversion Htc. split; [reflexivity|constructor].
    - destruct (euid_literal_ty sch u) eqn:E; [|discriminate]. apply euid_literal_ty_inv in E.
      inversion Htc; subst. split; [reflexivity|apply conf_entity_single]. }
  destruct H as [-> H]. exact (sound_value q es (Lit p) (VPrim p) t eq_refl H).
Qed.

Lemma sound_var m sch env q es v : env_ok env q -> IHfor m sch env q es (Var v).
Proof.
  intros [Hp Ha Hr Hc] cs t cs' _ Htc.
  rewrite tc_var in Htc. destruct (ty_of_var sch env v) eqn:E; [|discriminate]. inversion Htc; subst.
  apply (sound_value q es _ (eval_var q v)); [reflexivity|].
  destruct v; cbn [ty_of_var eval_var] in *.
  - inversion E; subst. rewrite <- Hp. apply conf_entity_single.
  - apply euid_literal_ty_inv in E. subst. rewrite <- Ha. apply conf_entity_single.
  - inversion E; subst. rewrite <- Hr. apply conf_entity_single.
  - inversion E; subst. exact Hc.
Qed.

(* operators that evaluate their operands first and export no capability: an error of an operand is the
   error of the whole, so what is left to show is what the operator does on values of the operand types *)
Definition op_result (r : res value) (t : ty) : Prop :=
  (exists c, r = Err c /\ allowed_err c) \/ (exists v, r = Ok v /\ TypeConforms v t).

Lemma op_result_bool b : op_result (Ok (VBool b)) (TBool BAny).
Proof. right. exists (VBool b). split; [reflexivity|apply TC_bool]. Qed.

Lemma sound_unary_op q es e a (f : value -> res value) ta ca t :
  eval [] q es e = (do v <- eval [] q es a; f v) ->
  sound_result q es a ta ca ->
  (forall v, eval [] q es a = Ok v -> TypeConforms v ta -> op_result (f v) t) ->
  sound_result q es e t [].
Proof.
  intros He [_ Da] Hf. split; [intros _; apply caps_hold_nil|]. unfold dyn_result. rewrite He.
  destruct Da as [(c & Ha & Hc)|(va & Ha & Hva & _)]; rewrite Ha; cbn [bind].
  - left. eauto.
  - destruct (Hf _ Ha Hva) as [Hr|(v & Hr & Hv)]; [left; exact Hr|right].
    exists v. split; [exact Hr|]. split; [exact Hv|]. intros _. apply caps_hold_nil.
Qed.

(* an arm of `tc` that only asks that the operand have one of the types l, and answers t *)
Lemma sound_expecting m sch env q es e a l t (f : value -> res value) :
  (forall cs, tc m sch env cs e = match expect (tc m sch env cs a) l with Some _ => Some (t, []) | None => None end) ->
  eval [] q es e = (do v <- eval [] q es a; f v) ->
  (forall ta v, existsb (subty Permissive ta) l = true -> TypeConforms v ta -> op_result (f v) t) ->
  IHfor m sch env q es a -> IHfor m sch env q es e.
Proof.
  intros Harm He Hf IHa cs t' cs' Hcs Htc. rewrite Harm in Htc. apply expect_then_inv in Htc.
  destruct Htc as (E & ta & ca & Ea & Hsa). inversion E; subst.
  apply (sound_unary_op q es e a f ta ca); [exact He|exact (IHa _ _ _ Hcs Ea)|].
  intros v _ Hv. exact (Hf ta v Hsa Hv).
Qed.

Lemma sound_binary_op q es e a b (f : value -> value -> res value) ta ca tb cb t :
  eval [] q es e = (do va <- eval [] q es a; do vb <- eval [] q es b; f va vb) ->
  sound_result q es a ta ca -> sound_result q es b tb cb ->
  (forall va vb, eval [] q es a = Ok va -> eval [] q es b = Ok vb ->
                 TypeConforms va ta -> TypeConforms vb tb -> op_result (f va vb) t) ->
  sound_result q es e t [].
Proof.
  intros He [_ Da] [_ Db] Hf. split; [intros _; apply caps_hold_nil|]. unfold dyn_result. rewrite He.
  destruct Da as [(c & Ha & Hc)|(va & Ha & Hva & _)]; rewrite Ha; cbn [bind]; [left; eauto|].
  destruct Db as [(c & Hb & Hc)|(vb & Hb & Hvb & _)]; rewrite Hb; cbn [bind]; [left; eauto|].
  destruct (Hf _ _ Ha Hb Hva Hvb) as [Hr|(v & Hr & Hv)]; [left; exact Hr|right].
  exists v. split; [exact Hr|]. split; [exact Hv|]. intros _. apply caps_hold_nil.
Qed.

Lemma sound_not m sch env q es a :
  IHfor m sch env q es a -> IHfor m sch env q es (UnApp UNot a).
Proof.
  intros IHa cs t cs' Hcs Htc. rewrite tc_not in Htc.
  get_expect Htc ta ca Ea Hsa.
  assert (Ht : cs' = [] /\ forall b, TypeConforms (VBool b) ta -> TypeConforms (VBool (negb b)) t).
  { destruct ta as [|[| |]| | | | | |]; inversion Htc; subst; (split; [reflexivity|]);
      intros b Hb; inversion Hb; constructor. }
  destruct Ht as [-> Ht].
  apply (sound_unary_op q es _ a (unary_app UNot) ta ca); [reflexivity|exact (IHa _ _ _ Hcs Ea)|].
  intros v _ Hv. destruct (bshape_value _ _ (sub_bool_shape _ Hsa) Hv) as [b ->].
  right. eexists. split; [reflexivity|]. apply Ht, Hv.
Qed.

Lemma disjoint_not_equal va vb ta tb :
  disjoint_tys ta tb = true -> TypeConforms va ta -> TypeConforms vb tb -> value_eqb va vb = false.
Proof.
  destruct ta as [| | | | |[|x]| |]; try discriminate. destruct tb as [| | | | |[|y]| |]; try discriminate.
  cbn [disjoint_tys]. intros Hd Ha Hb. inversion Ha; subst. inversion Hb; subst.
  cbn. destruct (uid_eqb u u0) eqn:E; [|reflexivity].
  apply uid_eqb_eq in E. subst u0.
  rewrite forallb_forall in Hd. specialize (Hd _ H1). rewrite (proj2 (lub_contains_In _ _) H2) in Hd. discriminate.
Qed.

Lemma replace_action_lit env q es e p :
  env_ok env q -> replace_action env e = Lit p -> eval [] q es e = Ok (VPrim p).
Proof.
  intros [_ Ha _ _]. destruct e; cbn [replace_action]; try discriminate.
  - intros H; inversion H; reflexivity.
  - destruct v; try discriminate. intros H; inversion H; subst. cbn. unfold VEntity. rewrite Ha. reflexivity.
Qed.

Lemma sound_eq m sch env q es a b :
  env_ok env q ->
  IHfor m sch env q es a -> IHfor m sch env q es b -> IHfor m sch env q es (BinApp BEq a b).
Proof.
  intros Henv IHa IHb cs t cs' Hcs Htc.
  apply tc_eq_inv in Htc as (ta & ca & tb & cb & Ea & Eb & -> & ->).
  apply (sound_binary_op q es _ a b (binary_app es BEq) ta ca tb cb);
    [reflexivity|exact (IHa _ _ _ Hcs Ea)|exact (IHb _ _ _ Hcs Eb)|].
  intros va vb He He2 Hva Hvb. right. eexists. split; [reflexivity|].
  unfold type_of_equality. destruct (disjoint_tys ta tb) eqn:Ed.
  - rewrite (disjoint_not_equal _ _ _ _ Ed Hva Hvb). constructor.
  - destruct (replace_action env a) eqn:Ra; try constructor.
    destruct (replace_action env b) eqn:Rb; try constructor.
    rewrite (replace_action_lit _ _ es _ _ Henv Ra) in He. rewrite (replace_action_lit _ _ es _ _ Henv Rb) in He2.
    inversion He; inversion He2; subst. cbn [value_eqb]. unfold ty_singleton. destruct (prim_eqb p p0); constructor.
Qed.

Lemma checked_result z : op_result (checked z) TLong.
Proof.
  unfold checked. destruct (in_i64 z).
  - right. eexists. split; [reflexivity|constructor].
  - left. eexists. split; [reflexivity|]. right. left. reflexivity.
Qed.

Lemma sound_neg m sch env q es a : IHfor m sch env q es a -> IHfor m sch env q es (UnApp UNeg a).
Proof.
  apply sound_expecting with (l := [TLong]) (t := TLong) (f := unary_app UNeg).
  { intros cs. apply tc_neg. }
  { reflexivity. }
  intros ta v Hs Hv. destruct (long_value _ _ Hs Hv) as [z ->]. apply checked_result.
Qed.

Lemma sound_arith m sch env q es op a b :
  op = BAdd \/ op = BSub \/ op = BMul ->
  IHfor m sch env q es a -> IHfor m sch env q es b -> IHfor m sch env q es (BinApp op a b).
Proof.
  intros Hop IHa IHb cs t cs' Hcs Htc. rewrite tc_arith in Htc by exact Hop.
  apply expect_then_inv in Htc. destruct Htc as (Htc & ta & ca & Ea & Hsa).
  apply expect_then_inv in Htc. destruct Htc as (E & tb & cb & Eb & Hsb). inversion E; subst.
  apply (sound_binary_op q es _ a b (binary_app es op) ta ca tb cb);
    [reflexivity|exact (IHa _ _ _ Hcs Ea)|exact (IHb _ _ _ Hcs Eb)|].
  intros va vb _ _ Hva Hvb. destruct (long_value _ _ Hsa Hva) as [x ->]. destruct (long_value _ _ Hsb Hvb) as [y ->].
  destruct Hop as [->|[->| ->]]; apply checked_result.
Qed.

Lemma sound_like m sch env q es x p : IHfor m sch env q es x -> IHfor m sch env q es (Like x p).
Proof.
  apply sound_expecting with (l := [TString]) (t := TBool BAny)
    (f := fun v => do s <- as_string v; Ok (VBool (wildcard p s))).
  { intros cs. apply tc_like. }
  { reflexivity. }
  intros tx v Hs Hv. destruct tx; cbn in Hs; try discriminate Hs; [exfalso; eapply conf_never; eauto|].
  inversion Hv; subst. apply op_result_bool.
Qed.

Lemma sound_is m sch env q es x et : IHfor m sch env q es x -> IHfor m sch env q es (Is x et).
Proof.
  intros IHx cs t cs' Hcs Htc. apply tc_is_inv in Htc as (-> & tx & cx & Ex & Ht).
  apply (sound_unary_op q es _ x (fun v => do u <- as_entity v; Ok (VBool (name_eqb (uty u) et))) tx cx);
    [reflexivity|exact (IHx _ _ _ Hcs Ex)|].
  intros v _ Hv. destruct Ht as [[-> ->]|(l & -> & ->)].
  - inversion Hv; subst. apply op_result_bool.
  - destruct (entity_value _ _ Hv) as (u & -> & Hin). right. eexists. split; [reflexivity|].
    destruct (lub_contains l et) eqn:Ec; cbn [negb].
    + destruct l as [|y [|z l']]; try apply TC_bool.
      destruct Hin as [Hy|[]]. apply lub_contains_In in Ec. destruct Ec as [Hz|[]]. subst.
      rewrite name_eqb_refl. constructor.
    + destruct (name_eqb (uty u) et) eqn:En; [|constructor].
      apply name_eqb_eq in En. subst et. apply lub_contains_In in Hin. rewrite Hin in Ec. discriminate Ec.
Qed.

Lemma ext_cmp_total less x y :
  ext_typename y = ext_typename x ->
  name_eqb (ext_typename x) [s2str "datetime"] || name_eqb (ext_typename x) [s2str "duration"] = true ->
  exists r, ext_overload_cmp less x y = Some r.
Proof.
  intros Hy Hn.
  destruct x; destruct y; try (eexists; reflexivity).
  (* the other pairs: two different extension types, or two of a type that is not ordered *)
  all: exfalso.
  all: first [cbv in Hy; discriminate Hy | cbv in Hn; discriminate Hn].
Qed.

Lemma less_values less ta tb va vb :
  ty_eqb ta tb && valid_cmp_ty ta = true -> TypeConforms va ta -> TypeConforms vb tb ->
  exists r, binary_relation less va vb = Ok (VBool r).
Proof.
  intros Hc Hva Hvb. apply andb_prop in Hc. destruct Hc as [Heq Hval].
  destruct ta; cbn [valid_cmp_ty] in Hval; try discriminate Hval.
  - destruct tb; try discriminate Heq. inversion Hva; subst. inversion Hvb; subst. cbn. eauto.
  - destruct tb; try discriminate Heq. cbn [ty_eqb] in Heq. apply name_eqb_eq in Heq. subst n0.
    inversion Hva; subst. inversion Hvb; subst.
    destruct (ext_cmp_total less x x0) as [r Hr]; [congruence|exact Hval|].
    cbn [binary_relation]. rewrite Hr. eauto.
Qed.

Lemma sound_less m sch env q es op a b :
  op = BLess \/ op = BLessEq ->
  IHfor m sch env q es a -> IHfor m sch env q es b -> IHfor m sch env q es (BinApp op a b).
Proof.
  intros Hop IHa IHb cs t cs' Hcs Htc.
  apply tc_cmp_inv in Htc as (-> & -> & ta & ca & tb & cb & Ea & Eb & Hc); [|exact Hop].
  apply (sound_binary_op q es _ a b (binary_app es op) ta ca tb cb);
    [reflexivity|exact (IHa _ _ _ Hcs Ea)|exact (IHb _ _ _ Hcs Eb)|].
  intros va vb _ _ Hva Hvb.
  (* the operand types have inhabitants, so neither is Never *)
  assert (Ha : ta <> TNever) by (intros ->; eapply conf_never; eauto).
  assert (Hb : tb <> TNever) by (intros ->; eapply conf_never; eauto).
  destruct (less_values (match op with BLess => true | _ => false end) _ _ _ _ (Hc Ha Hb) Hva Hvb) as [r Hr].
  right. exists (VBool r). split; [destruct Hop as [->| ->]; exact Hr|constructor].
Qed.

Lemma sound_isempty m sch env q es a : IHfor m sch env q es a -> IHfor m sch env q es (UnApp UIsEmpty a).
Proof.
  apply sound_expecting with (l := [ty_any_set]) (t := TBool BAny) (f := unary_app UIsEmpty).
  { intros cs. apply tc_isempty. }
  { reflexivity. }
  intros ta v Hs Hv. destruct (set_value _ _ Hs Hv) as [l ->]. apply op_result_bool.
Qed.

Lemma sound_contains m sch env q es a b :
  IHfor m sch env q es a -> IHfor m sch env q es b -> IHfor m sch env q es (BinApp BContains a b).
Proof.
  intros IHa IHb cs t cs' Hcs Htc.
  apply tc_contains_inv in Htc as (-> & -> & ta & ca & tb & cb & Ea & Hsa & Eb).
  apply (sound_binary_op q es _ a b (binary_app es BContains) ta ca tb cb);
    [reflexivity|exact (IHa _ _ _ Hcs Ea)|exact (IHb _ _ _ Hcs Eb)|].
  intros va vb _ _ Hva _. destruct (set_value _ _ Hsa Hva) as [l ->]. apply op_result_bool.
Qed.

Lemma sound_contains_aa m sch env q es op a b :
  op = BContainsAll \/ op = BContainsAny ->
  IHfor m sch env q es a -> IHfor m sch env q es b -> IHfor m sch env q es (BinApp op a b).
Proof.
  intros Hop IHa IHb cs t cs' Hcs Htc.
  apply tc_contains_aa_inv in Htc as (-> & -> & ta & ca & tb & cb & Ea & Hsa & Eb & Hsb); [|exact Hop].
  apply (sound_binary_op q es _ a b (binary_app es op) ta ca tb cb);
    [reflexivity|exact (IHa _ _ _ Hcs Ea)|exact (IHb _ _ _ Hcs Eb)|].
  intros va vb _ _ Hva Hvb. destruct (set_value _ _ Hsa Hva) as [l1 ->]. destruct (set_value _ _ Hsb Hvb) as [l2 ->].
  destruct Hop as [->| ->]; apply op_result_bool.
Qed.

(* which booleans a boolean type has, as a function: the facts about the typing rules of && and || below are then
   checked by computation on the (finitely many) singleton types *)
Definition may_be (t : ty) (b : bool) : bool :=
  match t with
  | TBool BAny => true
  | TBool BTrue => b
  | TBool BFalse => negb b
  | _ => false
  end.

Lemma conf_may b t : TypeConforms (VBool b) t -> may_be t b = true.
Proof. intros H; inversion H; reflexivity. Qed.

Lemma may_conf b t : may_be t b = true -> TypeConforms (VBool b) t.
Proof. destruct t as [|[| |]| | | | | |]; try discriminate; destruct b; try discriminate; constructor. Qed.

(* &&: the right operand is typed under the capabilities of the left one, and both sets are exported.  What the rule
   says once the left operand has a boolean type, read as facts about the values and capabilities of the operands *)
Lemma and_rule_inv ta ca rb t cs' :
  bshape ta -> and_rule ta ca rb = Some (t, cs') ->
  (ta = TBool BFalse /\ t = TBool BFalse /\ cs' = []) \/
  exists tb cb, rb = Some (tb, cb) /\ bshape tb /\ bshape t /\
    (always_true t -> always_true ta /\ always_true tb) /\
    incl cs' (ca ++ cb) /\
    (forall x y, may_be ta x = true -> (x = true -> may_be tb y = true) -> may_be t (x && y) = true).
Proof.
  intros [[xa ->]| ->] H; [destruct xa|].
  all: cbv beta iota delta [and_rule caps_union] in H.
  (* a left operand of type False answers alone *)
  3: { left. inversion H. auto. }
  all: right.
  all: get_expect H tb cb Eb Hsb.
  all: subst rb; exists tb, cb.
  all: split; [reflexivity|].
  all: pose proof (sub_bool_shape _ Hsb) as Bb.
  all: split; [exact Bb|].
  all: destruct Bb as [[xb ->]| ->]; [destruct xb|].
  all: inversion H; subst.
  (* twelve pairs of concrete types: a premise that cannot hold is refuted by computation *)
  all: split; [unfold bshape; eauto|].
  all: split; [intros Hat; first [destruct Hat as [Hat|Hat]; discriminate Hat | auto with c03]|].
  all: split; [auto using incl_nil_l, incl_refl, incl_app, incl_appr|].
  all: intros [|] [|] Hx Hy; try specialize (Hy eq_refl); solve [reflexivity | discriminate Hx | discriminate Hy].
Qed.

Lemma sound_and m sch env q es a b :
  IHfor m sch env q es a -> IHfor m sch env q es b -> IHfor m sch env q es (And a b).
Proof.
  intros IHa IHb cs t cs' Hcs Htc. rewrite tc_and in Htc.
  get_expect Htc ta ca Ea Hsa. apply sub_bool_shape in Hsa.
  destruct (IHa _ _ _ Hcs Ea) as [Sa Da].
  apply and_rule_inv in Htc as [(-> & -> & ->)|(tb & cb & Eb & Bb & _ & Hat & Hincl & Hval)]; [| |exact Hsa].
  - (* a : False *)
    split; [intros _; apply caps_hold_nil|]. unfold dyn_result. rewrite eval_and.
    destruct Da as [(c & He & Hc)|(va & He & Hva & _)]; rewrite He; [left; exists c; auto|].
    destruct (conf_bool _ _ Hva) as (x & -> & ->). right. exists (VBool false).
    split; [reflexivity|]. split; [constructor|intros Hv; discriminate Hv].
  - assert (Hb : caps_hold q es ca -> sound_result q es b tb cb)
      by (intros Hca; exact (IHb _ _ _ (caps_hold_union _ _ _ _ Hcs Hca) Eb)).
    split.
    + intros Ht. destruct (Hat Ht) as [Hta Htb]. pose proof (Sa Hta) as Hca. destruct (Hb Hca) as [Sb _].
      exact (caps_hold_incl _ _ _ _ Hincl (caps_hold_union _ _ _ _ Hca (Sb Htb))).
    + unfold dyn_result. rewrite eval_and.
      destruct Da as [(c & He & Hc)|(va & He & Hva & Hcapa)]; rewrite He; [left; exists c; auto|].
      destruct (bshape_value _ _ Hsa Hva) as [x ->]. cbn [bind as_bool VBool]. destruct x.
      * pose proof (Hcapa eq_refl) as Hca.
        destruct (Hb Hca) as [_ [(c & He2 & Hc)|(vb & He2 & Hvb & Hcapb)]]; rewrite He2; [left; exists c; auto|].
        destruct (bshape_value _ _ Bb Hvb) as [y ->]. right. exists (VBool y). split; [reflexivity|]. split.
        -- apply may_conf, (Hval true y (conf_may _ _ Hva)). intros _. exact (conf_may _ _ Hvb).
        -- intros Hv. exact (caps_hold_incl _ _ _ _ Hincl (caps_hold_union _ _ _ _ Hca (Hcapb Hv))).
      * right. exists (VBool false). split; [reflexivity|]. split.
        -- apply may_conf, (Hval false false (conf_may _ _ Hva)). intros E; discriminate E.
        -- intros Hv; discriminate Hv.
Qed.

(* ||: the exported capabilities come from the left operand when it is what made the result true, from the right
   operand when that one did; a True-typed right operand counts without being evaluated *)
Lemma or_rule_inv ta ca rb t cs' :
  bshape ta -> or_rule ta ca rb = Some (t, cs') ->
  (ta = TBool BTrue /\ t = TBool BTrue /\ cs' = ca) \/
  exists tb cb, rb = Some (tb, cb) /\ bshape tb /\ bshape t /\
    (always_true t -> (always_true ta /\ incl cs' ca) \/ (always_true tb /\ incl cs' cb)) /\
    (may_be ta true = true -> incl cs' ca \/ (always_true tb /\ incl cs' cb)) /\
    (may_be tb true = true -> incl cs' cb) /\
    (forall x y, may_be ta x = true -> (x = false -> may_be tb y = true) -> may_be t (x || y) = true).
Proof.
  intros [[xa ->]| ->] H; [destruct xa|].
  all: cbv beta iota delta [or_rule] in H.
  (* a left operand of type True answers alone *)
  2: { left. inversion H. auto. }
  all: right.
  all: get_expect H tb cb Eb Hsb.
  all: subst rb; exists tb, cb.
  all: split; [reflexivity|].
  all: pose proof (sub_bool_shape _ Hsb) as Bb.
  all: split; [exact Bb|].
  all: destruct Bb as [[xb ->]| ->]; [destruct xb|].
  all: inversion H; subst.
  (* twelve pairs of concrete types: a premise that cannot hold is refuted by computation, otherwise the side the
     capabilities come from is named *)
  all: split; [unfold bshape; eauto|].
  all: split; [intros Hat; first [destruct Hat as [Hat|Hat]; discriminate Hat
                                 | left; split; [solve [auto with c03]|apply incl_refl]
                                 | right; split; [solve [auto with c03]|apply incl_refl]]|].
  all: split; [intros Hx; first [discriminate Hx | left; solve [auto using incl_refl, caps_inter_incl_r]
                                | right; split; [solve [auto with c03]|apply incl_refl]]|].
  all: split; [intros Hy; first [discriminate Hy | solve [auto using incl_refl, caps_inter_incl_l]]|].
  all: intros [|] [|] Hx Hy; try specialize (Hy eq_refl); solve [reflexivity | discriminate Hx | discriminate Hy].
Qed.

Lemma sound_or m sch env q es a b :
  IHfor m sch env q es a -> IHfor m sch env q es b -> IHfor m sch env q es (Or a b).
Proof.
  intros IHa IHb cs t cs' Hcs Htc. rewrite tc_or in Htc.
  get_expect Htc ta ca Ea Hsa. apply sub_bool_shape in Hsa.
  destruct (IHa _ _ _ Hcs Ea) as [Sa Da].
  apply or_rule_inv in Htc as [(-> & -> & ->)|(tb & cb & Eb & Bb & _ & Hat & Htrue & Hfalse & Hval)]; [| |exact Hsa].
  - (* a : True *)
    split; [exact Sa|]. unfold dyn_result. rewrite eval_or.
    destruct Da as [(c & He & Hc)|(va & He & Hva & Hcapa)]; rewrite He; [left; exists c; auto|].
    destruct (conf_bool _ _ Hva) as (x & -> & ->). right. exists (VBool true).
    split; [reflexivity|]. split; [constructor|exact Hcapa].
  - destruct (IHb _ _ _ Hcs Eb) as [Sb Db].
    split.
    + intros Ht. destruct (Hat Ht) as [[Hta Hi]|[Htb Hi]]; eauto using caps_hold_incl.
    + unfold dyn_result. rewrite eval_or.
      destruct Da as [(c & He & Hc)|(va & He & Hva & Hcapa)]; rewrite He; [left; exists c; auto|].
      destruct (bshape_value _ _ Hsa Hva) as [x ->]. cbn [branch bind as_bool VBool]. destruct x.
      * (* left operand true: the right one is not evaluated *)
        right. exists (VBool true). split; [reflexivity|]. split.
        -- apply may_conf, (Hval true true (conf_may _ _ Hva)). intros E; discriminate E.
        -- intros _. destruct (Htrue (conf_may _ _ Hva)) as [Hi|[Htb Hi]]; eauto using caps_hold_incl.
      * destruct Db as [(c & He2 & Hc)|(vb & He2 & Hvb & Hcapb)]; rewrite He2; [left; exists c; auto|].
        destruct (bshape_value _ _ Bb Hvb) as [y ->]. right. exists (VBool y). split; [reflexivity|]. split.
        -- apply may_conf, (Hval false y (conf_may _ _ Hva)). intros _. exact (conf_may _ _ Hvb).
        -- intros Hv. apply vbool_inj in Hv. subst y.
           exact (caps_hold_incl _ _ _ _ (Hfalse (conf_may _ _ Hvb)) (Hcapb eq_refl)).
Qed.
