(* The invariant (`holds`, `inv_caches`): after every history the cache holds, under each name, the
   parse of the source last successfully registered under it; the specification is read off those
   sources.  The ids of the policies of one text are distinct because `policy_id` is injective. *)
From Coq Require Import Lia Decimal DecimalN.
From Cedar Require Import Ffi BaseFacts.

Section CacheProofs.
  Variables src pset schema call answer : Type.
  Variable parse_pset : src -> option pset.
  Variable parse_schema : src -> option schema.
  Variable authorize : pset -> option schema -> call -> answer.

  Notation step := (step src pset schema call answer parse_pset parse_schema authorize).
  Notation run := (run src pset schema call answer parse_pset parse_schema authorize).
  Notation trace_from := (trace_from src pset schema call answer parse_pset parse_schema authorize).
  Notation stateful := (stateful pset schema call answer authorize).
  Notation reg_pset := (reg_pset src pset call parse_pset).
  Notation reg_schema := (reg_schema src schema call parse_schema).
  Notation spec_of := (spec_of src pset schema call parse_pset parse_schema).
  Notation meets := (meets src pset schema call answer parse_pset parse_schema authorize).

  Lemma run_snoc h o : run (h ++ [o]) = fst (step (run h) o).
  Proof. unfold Ffi.run. rewrite fold_left_app. reflexivity. Qed.

  Lemma reg_pset_snoc h o n :
    reg_pset (h ++ [o]) n =
    match o with
    | PreparsePset n' s => if str_eqb n n' && negb (is_none (parse_pset s)) then Some s else reg_pset h n
    | _ => reg_pset h n
    end.
  Proof. unfold Ffi.reg_pset. rewrite fold_left_app. destruct o; reflexivity. Qed.

  Lemma reg_schema_snoc h o n :
    reg_schema (h ++ [o]) n =
    match o with
    | PreparseSchema n' s => if str_eqb n n' && negb (is_none (parse_schema s)) then Some s else reg_schema h n
    | _ => reg_schema h n
    end.
  Proof. unfold Ffi.reg_schema. rewrite fold_left_app. destruct o; reflexivity. Qed.

  Definition holds {V} (parse : src -> option V) (m : cmap V) (n : cname) (r : option src) : Prop :=
    match r with
    | Some s => exists p, parse s = Some p /\ cget n m = Some p
    | None => cget n m = None
    end.

  Lemma holds_register {V} (parse : src -> option V) m n n' s r :
    holds parse m n r ->
    holds parse (match parse s with Some p => cinsert n' p m | None => m end) n
          (if str_eqb n n' && negb (is_none (parse s)) then Some s else r).
  Proof.
    intros H. destruct (parse s) as [p|] eqn:E; cbn [is_none negb]; [|rewrite Bool.andb_false_r; exact H].
    rewrite Bool.andb_true_r. unfold holds. cbn [cinsert cget]. destruct (str_eqb n n'); [|exact H].
    exists p. split; [exact E | reflexivity].
  Qed.

  Lemma inv_caches h n :
    holds parse_pset (psets _ _ (run h)) n (reg_pset h n) /\
    holds parse_schema (schemas _ _ (run h)) n (reg_schema h n).
  Proof.
    induction h as [|o h [P S]] using rev_ind; [split; reflexivity|].
    rewrite run_snoc, reg_pset_snoc, reg_schema_snoc. destruct o as [n' s|n' s|sn pn c]; cbn [Ffi.step].
    - apply (holds_register parse_pset _ n n' s) in P. destruct (parse_pset s); split; assumption.
    - apply (holds_register parse_schema _ n n' s) in S. destruct (parse_schema s); split; assumption.
    - split; assumption.
  Qed.

  Lemma stateful_meets h sn pn c : meets (stateful (run h) sn pn c) (spec_of h sn pn) c.
  Proof.
    unfold Ffi.stateful, Ffi.spec_of.
    pose proof (proj1 (inv_caches h pn)) as P. destruct (reg_pset h pn) as [ps|]; cbn [holds] in P.
    - destruct P as (p & Ep & ->). destruct sn as [n|].
      + pose proof (proj2 (inv_caches h n)) as S. destruct (reg_schema h n) as [ss|]; cbn [holds] in S.
        * destruct S as (x & Ex & ->). cbn [Ffi.meets]. unfold Ffi.stateless. rewrite Ep, Ex.
          eexists. split; reflexivity.
        * rewrite S. reflexivity.
      + cbn [Ffi.meets]. unfold Ffi.stateless. rewrite Ep. eexists. split; reflexivity.
    - rewrite P. destruct sn as [n|]; [|reflexivity].
      pose proof (proj2 (inv_caches h n)) as S. destruct (reg_schema h n) as [ss|]; cbn [holds] in S.
      + destruct S as (x & _ & ->). reflexivity.
      + rewrite S. reflexivity.
  Qed.

  Lemma trace_from_nth : forall h1 st o h2,
    nth_error (trace_from st (h1 ++ o :: h2)) (length h1) =
    Some (snd (step (fold_left (fun st o => fst (step st o)) h1 st) o)).
  Proof.
    induction h1 as [|a h1 IH]; intros st o h2.
    - cbn [app length fold_left Ffi.trace_from]. destruct (step st o); reflexivity.
    - cbn [app length fold_left Ffi.trace_from].
      destruct (step st a) as [st' x] eqn:E. cbn [nth_error fst]. apply IH.
  Qed.

  Lemma meets_fun a a' sp c : meets a sp c -> meets a' sp c -> a = a'.
  Proof.
    destruct sp; cbn [Ffi.meets]; [|intros -> ->; reflexivity].
    intros (r & E & ->) (r' & E' & ->). congruence.
  Qed.
End CacheProofs.

(* uint_cps has a left inverse, reading the digits back *)
Fixpoint cps_uint (s : str) : Decimal.uint :=
  match s with
  | [] => Nil
  | c :: r =>
      let u := cps_uint r in
      match c with
      | 48 => D0 u | 49 => D1 u | 50 => D2 u | 51 => D3 u | 52 => D4 u
      | 53 => D5 u | 54 => D6 u | 55 => D7 u | 56 => D8 u | _ => D9 u
      end%N
  end.

Lemma cps_uint_cps u : cps_uint (uint_cps u) = u.
Proof. induction u; cbn [uint_cps cps_uint]; [reflexivity | rewrite IHu; reflexivity ..]. Qed.

Lemma uint_cps_inj : forall u v, uint_cps u = uint_cps v -> u = v.
Proof. intros u v H. rewrite <- (cps_uint_cps u), H. apply cps_uint_cps. Qed.

Lemma policy_id_inj i j : policy_id i = policy_id j -> i = j.
Proof.
  unfold policy_id. intros H. apply app_inv_head in H. apply uint_cps_inj in H.
  rewrite <- (DecimalN.Unsigned.of_to i), <- (DecimalN.Unsigned.of_to j). now rewrite H.
Qed.

Lemma ids_from_length : forall n k, length (ids_from k n) = n.
Proof. induction n as [|n IH]; intros k; cbn [ids_from length]; [reflexivity | now rewrite IH]. Qed.

Lemma ids_from_nth : forall n k i, (i < n)%nat -> nth_error (ids_from k n) i = Some (policy_id (k + N.of_nat i)).
Proof.
  induction n as [|n IH]; intros k i H; [lia|].
  destruct i; cbn [ids_from nth_error].
  - now rewrite N.add_0_r.
  - rewrite IH by lia. f_equal. f_equal. lia.
Qed.

Lemma nth_error_combine {A B} : forall (l : list A) (l' : list B) i a b,
  nth_error l i = Some a -> nth_error l' i = Some b -> nth_error (combine l l') i = Some (a, b).
Proof.
  induction l as [|a l IH]; intros l' i x y H1 H2; destruct i; destruct l'; cbn in *; try discriminate.
  - now inversion H1; inversion H2.
  - now apply IH.
Qed.

Lemma mem_ids_from : forall n k j, (j < k)%N -> mem_str (policy_id j) (ids_from k n) = false.
Proof.
  induction n as [|n IH]; intros k j H; cbn [ids_from mem_str]; [reflexivity|].
  rewrite IH by lia. rewrite Bool.orb_false_r.
  destruct (str_eqb (policy_id j) (policy_id k)) eqn:E; [|reflexivity].
  apply str_eqb_eq in E. apply policy_id_inj in E. lia.
Qed.

Lemma nodup_ids_from : forall n k, nodup_strs (ids_from k n) = true.
Proof.
  induction n as [|n IH]; intros k; cbn [ids_from nodup_strs]; [reflexivity|].
  rewrite mem_ids_from by lia. now rewrite IH.
Qed.

Lemma map_fst_combine {A B} : forall (l : list A) (l' : list B), length l = length l' -> map fst (combine l l') = l.
Proof. intros l l' H. apply combine_fst_snd. symmetry. exact H. Qed.

Lemma mem_str_app x l1 l2 : mem_str x (l1 ++ x :: l2) = true.
Proof.
  induction l1 as [|y l1 IH]; cbn [app mem_str]; [now rewrite str_eqb_refl | rewrite IH; apply Bool.orb_true_r].
Qed.

Lemma nodup_strs_dup x l1 l2 l3 : nodup_strs (l1 ++ x :: l2 ++ x :: l3) = false.
Proof.
  induction l1 as [|y l1 IH]; cbn [app nodup_strs].
  - now rewrite mem_str_app.
  - rewrite IH. apply Bool.andb_false_r.
Qed.

Lemma assembly_set_small B (ps : list (bool * B)) :
  (length ps <= 1)%nat -> assemble (SetOf ps) = Some (assign_ids (SetOf ps)).
Proof.
  destruct ps as [|b [|b' ps]]; cbn [length]; intros H; try lia; reflexivity.
Qed.

Lemma validate_fails_iff dw p w :
  negb p || (dw && w) = true <-> p = false \/ (dw = true /\ w = true).
Proof. rewrite Bool.orb_true_iff, Bool.negb_true_iff, Bool.andb_true_iff. reflexivity. Qed.

Lemma validate_passes_iff dw p w :
  negb p || (dw && w) = false <-> p = true /\ (dw = false \/ w = false).
Proof. rewrite Bool.orb_false_iff, Bool.negb_false_iff, Bool.andb_false_iff. reflexivity. Qed.

Lemma exit_code_validate dw o :
  (exit_code (validate_exit dw o) = 1%N <-> o = VoInputError) /\
  (exit_code (validate_exit dw o) = 3%N <->
     exists p w, o = VoResult p w /\ (p = false \/ (dw = true /\ w = true))) /\
  (exit_code (validate_exit dw o) = 0%N <->
     exists w, o = VoResult true w /\ (dw = false \/ w = false)).
Proof.
  destruct o as [|p w]; cbn [validate_exit].
  - (* input error *)
    split; [split; reflexivity|]. split.
    + split; [discriminate|]. intros (p & w & H & _). discriminate H.
    + split; [discriminate|]. intros (w & H & _). discriminate H.
  - destruct (negb p || dw && w) eqn:E; cbn [exit_code].
    + (* fails *)
      split; [split; discriminate|]. split.
      * split; [|reflexivity]. intros _. exists p, w. split; [reflexivity|].
        apply validate_fails_iff. exact E.
      * split; [discriminate|]. intros (w' & H & Hc). injection H as -> <-.
        rewrite (proj2 (validate_passes_iff dw true w) (conj eq_refl Hc)) in E. discriminate E.
    + (* passes *)
      split; [split; discriminate|]. split.
      * split; [discriminate|]. intros (p' & w' & H & Hf). injection H as <- <-.
        rewrite (proj2 (validate_fails_iff dw p w) Hf) in E. discriminate E.
      * apply validate_passes_iff in E as [-> Hc]. split; [|reflexivity].
        intros _. exists w. split; [reflexivity|exact Hc].
Qed.
