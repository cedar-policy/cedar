From Cedar Require Import Fmt FmtProofs.
Local Open Scope nat_scope.
Local Open Scope list_scope.

Definition mtext (m : mode) : str :=
  match m with
  | MTop => []
  | MWord a | MNum a | MSlot a | MCom a | MStr a _ => rev a
  end.

(* the invariant: the text consumed so far in the current item leads from the top mode to the
   current mode *)
Definition replay (m : mode) : Prop :=
  forall rest out, lex MTop (mtext m ++ rest) out = lex m rest out.

Definition tok_text (t : token) : str :=
  match t with TWord s | TNum s | TStr s | TSlot s | TSym s => s end.

Definition item_wf (i : item) : Prop :=
  match i with ITok t => clex (tok_text t) = Some [ITok t] | ICom _ => True end.

Lemma replay_top : replay MTop.
Proof. intros rest out; reflexivity. Qed.

Lemma replay_step {m m' c} :
  replay m -> mtext m' = mtext m ++ [c] ->
  (forall rest out, lex m (c :: rest) out = lex m' rest out) -> replay m'.
Proof. intros R T S rest out. rewrite T, <- app_assoc. cbn [app]. rewrite R. apply S. Qed.

Lemma replay_wf {m t} :
  replay m -> lex m [] [] = Some [ITok t] -> tok_text t = mtext m -> item_wf (ITok t).
Proof.
  intros R Ht Hx. unfold item_wf, clex. rewrite Hx, <- (app_nil_r (mtext m)), R. exact Ht.
Qed.

(* the second case is the quote that closes a string *)
Lemma absorb_cases {m c m' e} :
  continue m c = Absorb m' e ->
  (e = None /\ mtext m' = mtext m ++ [c]) \/
  (exists t, e = Some (ITok t) /\ m' = MTop /\ tok_text t = mtext m ++ [c]).
Proof.
  destruct m as [|a|a|a|a [|]|a]; cbn [continue]; case_tests; intros [= <- <-].
  all: (left; split; reflexivity) || (right; eexists; repeat split).
Qed.

Lemma continue_absorb {m c m' e} :
  replay m -> continue m c = Absorb m' e -> replay m' /\ (forall i, e = Some i -> item_wf i).
Proof.
  intros R Hc.
  assert (S : forall rest out, lex m (c :: rest) out = lex m' rest (push e out))
    by (intros; rewrite lex_cons, Hc; reflexivity).
  destruct (absorb_cases Hc) as [[-> T]|[t [-> [-> T]]]].
  - split; [exact (replay_step R T S) | discriminate].
  - split; [apply replay_top|]. intros i [= <-]. unfold item_wf, clex. rewrite T, R. apply S.
Qed.

Lemma flush_wf {m out l} :
  replay m -> Forall item_wf out -> flush m out = Some l -> Forall item_wf l.
Proof.
  intros R W H. destruct m as [|a|a|a|a esc|a]; cbn in H.
  - injection H as <-. assumption.
  - injection H as <-. constructor; [apply (replay_wf R); reflexivity | assumption].
  - injection H as <-. constructor; [apply (replay_wf R); reflexivity | assumption].
  - destruct (slot_ok (rev a)) eqn:S; [|discriminate]. injection H as <-.
    constructor; [|assumption]. apply (replay_wf R); [|reflexivity].
    rewrite lex_nil. cbn. rewrite S. reflexivity.
  - discriminate.
  - injection H as <-. constructor; [exact I | assumption].
Qed.

Lemma restart_flush {m c e} out : continue m c = Restart e -> flush m out = Some (push e out).
Proof. destruct m as [|a|a|a|a [|]|a]; cbn; case_tests; intros [= <-]; reflexivity. Qed.

Lemma open1_text {c m} : open1 c = Some m -> m = MTop \/ mtext m = [c].
Proof. unfold open1. case_tests; intros [= <-]; auto. Qed.

(* Every claim is about lexing from the top a text that begins with c, which T states through
   `start`; the case analysis of `start` at s' then decides `start` in T too. *)
Lemma start_wf {c s' m' s'' e'} :
  start c s' = Some (m', s'', e') -> replay m' /\ (forall i, e' = Some i -> item_wf i).
Proof.
  intros St.
  assert (T : forall t o, lex MTop (c :: t) o =
                          match start c t with Some (m1, t1, e1) => lex m1 t1 (push e1 o) | None => None end)
    by (intros; rewrite lex_cons; reflexivity).
  revert St T. unfold start. destruct (open1 c) as [m|] eqn:O.
  - intros [= <- <- <-] T. split; [|discriminate].
    destruct (open1_text O) as [->|X]; [apply replay_top|]. intros rest o. rewrite X. apply T.
  - intros St T.
    assert (W1 : is_single c = true -> item_wf (ITok (TSym [c]))).
    { intros E. unfold item_wf, clex. cbn [tok_text]. rewrite T. cbn [hd_error open_sym]. rewrite E. reflexivity. }
    revert St. destruct s' as [|d t]; cbn [hd_error tl open_sym].
    + destruct (is_single c); [|discriminate]. intros [= <- <- <-].
      split; [apply replay_top | intros i [= <-]; exact (W1 eq_refl)].
    + pose proof (fun t => T (d :: t)) as T2. clear T. revert T2. cbn [hd_error tl open_sym].
      destruct ((c =? 47) && (d =? 47))%N; [intros T2 [= <- <- <-]; split; [exact T2 | discriminate]|].
      destruct (is_double c d).
      { intros T2 [= <- <- <-]. split; [apply replay_top|]. intros i [= <-].
        unfold item_wf, clex. cbn [tok_text]. rewrite T2. reflexivity. }
      destruct (is_single c); [|discriminate]. intros _ [= <- <- <-].
      split; [apply replay_top | intros i [= <-]; exact (W1 eq_refl)].
Qed.

Lemma push_wf {e out} : (forall i, e = Some i -> item_wf i) -> Forall item_wf out -> Forall item_wf (push e out).
Proof. intros H W. destruct e as [i|]; cbn; [constructor; [apply H; reflexivity | assumption] | assumption]. Qed.

Lemma lex_wf s : forall m out l,
  replay m -> Forall item_wf out -> lex m s out = Some l -> Forall item_wf l.
Proof.
  induction s as [|c s' IH] using str_ind_le; intros m out l R W H.
  - rewrite lex_nil in H. destruct (flush m out) as [l'|] eqn:F; [|discriminate]. injection H as <-.
    apply Forall_rev. eapply flush_wf; eassumption.
  - rewrite lex_cons in H. destruct (continue m c) as [m' e|e|] eqn:Hc; [| |discriminate].
    + destruct (continue_absorb R Hc) as [R' We].
      exact (IH s' (le_n _) m' _ l R' (push_wf We W) H).
    + destruct (start c s') as [[[m' s''] e']|] eqn:St; [|discriminate].
      destruct (start_wf St) as [R' We'].
      refine (IH s'' (start_shorter St) m' _ l R' (push_wf We' _) H).
      exact (flush_wf R W (restart_flush out Hc)).
Qed.

Lemma clex_wf s l : clex s = Some l -> Forall item_wf l.
Proof. exact (lex_wf s MTop [] l replay_top (Forall_nil _)). Qed.

Fixpoint render (l : list token) : str :=
  match l with
  | [] => []
  | t :: l' => tok_text t ++ 10%N :: render l'
  end.

Lemma render_roundtrip l :
  Forall item_wf (map ITok l) -> clex (render l) = Some (map ITok l).
Proof.
  induction l as [|t l IH]; intros W; [reflexivity|].
  inversion W as [|x y Wt Wl]; subst. cbn [render map].
  change (ITok t :: map ITok l) with ([ITok t] ++ map ITok l).
  apply clex_join; [exact Wt | apply IH; exact Wl].
Qed.

Lemma comments_nil_map l : comments_of l = [] -> l = map ITok (tokens_of l).
Proof.
  induction l as [|[t|c] l IH]; cbn; intros H; [reflexivity | f_equal; apply IH; exact H | discriminate].
Qed.

Definition canon (a : str) : str :=
  match tokens a with Some l => render l | None => a end.

Lemma canon_F2 a : clex a <> None -> comment_free a -> fmt_ok a (canon a).
Proof.
  intros Ha Hc. unfold comment_free, comments, canon, tokens in *.
  destruct (clex a) as [l|] eqn:E; [|contradiction Ha; reflexivity]. cbn in *.
  injection Hc as Hc. exists l. split; [exact E|].
  rewrite (comments_nil_map l Hc) at 2. apply render_roundtrip.
  rewrite <- (comments_nil_map l Hc). eapply clex_wf; eassumption.
Qed.

Lemma canon_F1 a b : clex a <> None -> tokens a = tokens b -> canon a = canon b.
Proof.
  intros Ha H. unfold canon. rewrite <- H. unfold tokens in *.
  destruct (clex a); [reflexivity | contradiction Ha; reflexivity].
Qed.

Lemma canon_idempotent a : clex a <> None -> comment_free a -> canon (canon a) = canon a.
Proof.
  apply (idempotent_comment_free canon canon_F2). intros b c Hb _. apply canon_F1.
  unfold comment_free, comments in Hb. destruct (clex b); discriminate.
Qed.
