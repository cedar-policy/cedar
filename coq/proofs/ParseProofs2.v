From Coq Require Import Lia String.
From Cedar Require Import UnescapeProofs Printable BaseFacts ParseProofs.
Open Scope N_scope.

Lemma kw_if : kw "if" (ascii "if") = true. Proof. reflexivity. Qed.
Lemma kw_then : kw "then" (ascii "then") = true. Proof. reflexivity. Qed.
Lemma kw_else : kw "else" (ascii "else") = true. Proof. reflexivity. Qed.
Lemma follow0_then r : follow_ok 0 (tid "then" :: r) = true. Proof. reflexivity. Qed.
Lemma follow0_else r : follow_ok 0 (tid "else" :: r) = true. Proof. reflexivity. Qed.
Lemma follow0_rparen r : follow_ok 0 (TRParen :: r) = true. Proof. reflexivity. Qed.
Lemma follow0_rbrack r : follow_ok 0 (TRBrack :: r) = true. Proof. reflexivity. Qed.

Lemma not_reserved_id s : existsb (str_eqb s) reserved_ids = false -> unreserved s = true.
Proof.
  unfold unreserved, reserved_word, kw, reserved_ids. cbn [map existsb]. intros H.
  repeat (apply orb_false_elim in H; destruct H as [-> H]). reflexivity.
Qed.

Lemma normalized_unreserved k : is_normalized_ident k = true -> unreserved k = true.
Proof.
  destruct k as [|c k]; [discriminate|]. cbn [is_normalized_ident]. intros H.
  apply andb_true_iff in H. destruct H as [_ H]. apply not_reserved_id, negb_true_iff, H.
Qed.

Lemma ident_ok_unreserved c : ident_ok c = true -> unreserved c = true.
Proof.
  unfold ident_ok. destruct c; [discriminate|]. intros H. apply andb_true_iff in H. apply H.
Qed.

Lemma name_ok_unreserved n : name_ok n = true -> forallb unreserved n = true.
Proof.
  intros H. apply forallb_forall. intros x Hx. apply ident_ok_unreserved.
  destruct n; [discriminate H|]. exact (proj1 (forallb_forall _ _) H x Hx).
Qed.

Lemma unreserved_not_kw c : unreserved c = true ->
  kw "true" c = false /\ kw "false" c = false /\ kw "if" c = false.
Proof.
  unfold unreserved, reserved_word. intros H. apply andb_true_iff in H. destruct H as [H _].
  apply negb_true_iff in H.
  destruct (kw "true" c); [discriminate|]. destruct (kw "false" c); [discriminate|].
  destruct (kw "if" c); [discriminate|]. auto.
Qed.

Lemma var_of_ident_show s v : var_of_ident s = Some v -> s = show_var v.
Proof.
  unfold var_of_ident, kw.
  destruct (str_eqb s (ascii "principal")) eqn:E1; [intros H; inversion H; subst; apply str_eqb_eq; exact E1|].
  destruct (str_eqb s (ascii "action")) eqn:E2; [intros H; inversion H; subst; apply str_eqb_eq; exact E2|].
  destruct (str_eqb s (ascii "resource")) eqn:E3; [intros H; inversion H; subst; apply str_eqb_eq; exact E3|].
  destruct (str_eqb s (ascii "context")) eqn:E4; [intros H; inversion H; subst; apply str_eqb_eq; exact E4|].
  discriminate.
Qed.

Fixpoint path_toks (p : list str) : list token :=
  match p with [] => [] | s :: p' => TColon2 :: TIdent s :: path_toks p' end.

Lemma name_toks_cons c p : name_toks (c :: p) = TIdent c :: path_toks p.
Proof.
  revert c. induction p as [|d p IH]; intros c; [reflexivity|].
  change (name_toks (c :: d :: p)) with (TIdent c :: TColon2 :: name_toks (d :: p)).
  rewrite IH. reflexivity.
Qed.

Definition no_path (ts : list token) : bool := negb (starts_path ts).
Definition no_call (ts : list token) : Prop := match ts with TLParen :: _ => False | _ => True end.
Definition is_leaf (e : expr) : Prop := match e with Lit _ | Var _ | Slot _ => True | _ => False end.

Lemma parse_path_name p rest : no_path rest = true -> parse_path (path_toks p ++ rest) = (p, PEName, rest).
Proof.
  intros H. induction p as [|s p IH].
  - cbn [path_toks app]. destruct rest as [|[] ?]; try reflexivity. discriminate.
  - cbn [path_toks app parse_path]. rewrite IH. reflexivity.
Qed.

Lemma parse_path_nil rest : no_path rest = true -> parse_path rest = ([], PEName, rest).
Proof. exact (parse_path_name [] rest). Qed.

Lemma parse_path_uid p raw rest : parse_path (path_toks p ++ TColon2 :: TStr raw :: rest) = (p, PEUid raw, rest).
Proof.
  induction p as [|s p IH]; [reflexivity|]. cbn [path_toks app parse_path]. rewrite IH. reflexivity.
Qed.

Lemma follow7_no_access rest : follow_ok 7 rest = true -> access_start rest = false /\ no_path rest = true.
Proof. destruct rest as [|[] ?]; cbn; intros H; try (split; reflexivity); discriminate. Qed.
Lemma follow3_haspath rest : follow_ok 3 rest = true -> parse_has_path rest = Some ([], rest).
Proof. destruct rest as [|[] ?]; cbn; intros H; try reflexivity; discriminate. Qed.
Lemma follow3_not_in rest : follow_ok 3 rest = true ->
  match rest with TIdent s3 :: _ => kw "in" s3 = false | _ => True end.
Proof.
  destruct rest as [|[] ?]; cbn; intros H; try exact I.
  destruct (kw "in" s); [discriminate|reflexivity].
Qed.

Lemma follow7_no_call rest : follow_ok 7 rest = true -> no_call rest.
Proof. destruct rest as [|[] ?]; cbn; intros H; try exact I; discriminate. Qed.

(* the type name that parse_rel takes the right operand of `is` to be *)
Definition type_name_of (r : eos) :=
  match r with EVar v => Some [show_var v] | EName m => Some m | _ => None end.

Lemma ident_primary rec fuel c rest : unreserved c = true -> no_path rest = true ->
  exists r, parse_primary rec fuel (TIdent c :: rest) = Some (r, rest) /\ into_valid_attr r = Some c /\
            type_name_of r = Some [c].
Proof.
  intros Hc Hn. destruct (unreserved_not_kw c Hc) as (Kt & Kf & _).
  cbn [parse_primary]. rewrite (parse_path_nil rest Hn), Kt, Kf. destruct (var_of_ident c) eqn:Ev.
  - eexists. split; [reflexivity|]. cbn [into_valid_attr type_name_of]. rewrite (var_of_ident_show c v Ev).
    split; reflexivity.
  - rewrite Hc. eexists. repeat split.
Qed.

Lemma method_fns_plain : forallb (fun m => unreserved m && negb (builtin_method m)) method_style_fns = true.
Proof. reflexivity. Qed.

Lemma method_fn_facts m : existsb (str_eqb m) method_style_fns = true ->
  unreserved m = true /\ forall r args, to_meth m r args = Some (ExtCall [m] (r :: args)).
Proof.
  intros H. pose proof H as Hid. apply existsb_exists in H. destruct H as (x & Hin & Hx).
  apply str_eqb_eq in Hx. subst x.
  pose proof (proj1 (forallb_forall _ _) method_fns_plain m Hin) as Hm.
  apply andb_true_iff in Hm. destruct Hm as [Hu Hb]. split; [exact Hu|]. intros r args.
  apply negb_true_iff in Hb. unfold builtin_method in Hb. unfold to_meth.
  repeat (apply orb_false_elim in Hb; destruct Hb as [Hb ->]).
  fold (is_method_id m) in Hid. rewrite Hb, Hid. reflexivity.
Qed.

Lemma function_fn_facts fn : is_function_name fn = true ->
  exists b, fn = [b] /\ is_method_style fn = false /\ kw "if" b = false /\
    (forall args, into_func fn args = Some (ExtCall fn args)) /\
    (forall rec fuel X, parse_primary rec fuel (TIdent b :: TLParen :: X) = Some (EName [b], TLParen :: X)).
Proof.
  intros H. destruct fn as [|b [|? ?]]; try (cbn in H; discriminate H).
  unfold is_function_name, function_style_fns in H. cbn [map existsb] in H.
  repeat (apply orb_true_iff in H; destruct H as [H|H]); try discriminate;
    apply str_eqb_eq in H; subst b; eexists; repeat split; reflexivity.
Qed.

Lemma member_call rec fuel ts n ts2 args ts3 e :
  parse_primary rec fuel ts = Some (EName n, TLParen :: ts2) ->
  args_loop rec fuel is_rparen ts2 = Some (args, ts3) -> into_func n args = Some e ->
  parse_member rec fuel ts = access_loop rec fuel fuel e ts3.
Proof. intros H1 H2 H3. unfold parse_member. rewrite H1. cbn [access_start]. rewrite H2, H3. reflexivity. Qed.

Lemma args_loop_nil rec n close t rest : close t = true -> args_loop rec n close (t :: rest) = Some ([], rest).
Proof. intros H. destruct n; cbn [args_loop]; rewrite H; reflexivity. Qed.

Definition fails_on (close : token -> bool) (rec : list token -> pres) : Prop :=
  forall ts, match ts with t :: _ => close t = true | [] => True end -> rec ts = None.
Lemma args_loop_cons rec k close ts r ts1 e :
  fails_on close rec -> rec ts = Some (r, ts1) -> into_expr r = Some e ->
  args_loop rec (S k) close ts =
    match ts1 with
    | TComma :: ts2 => match args_loop rec k close ts2 with Some (es, r2) => Some (e :: es, r2) | None => None end
    | t1 :: ts2 => if close t1 then Some ([e], ts2) else None
    | [] => None
    end.
Proof.
  intros Hf H Hi. destruct ts as [|t ts']; [rewrite (Hf [] I) in H; discriminate H|].
  destruct (close t) eqn:Hc; [rewrite (Hf (t :: ts') Hc) in H; discriminate H|].
  cbn [args_loop]. rewrite Hc, H, Hi. reflexivity.
Qed.

Lemma parse_expr_fails_on close f :
  (forall t, close t = true -> t = TRParen \/ t = TRBrack) -> fails_on close (parse_expr f).
Proof.
  intros Hcl ts H. destruct f as [|f]; [reflexivity|]. destruct ts as [|t ts]; [reflexivity|].
  destruct (Hcl t H) as [-> | ->]; reflexivity.
Qed.

Lemma recinits_nil rec n rest : recinits_loop rec n (TRBrace :: rest) = Some ([], rest).
Proof. destruct n; reflexivity. Qed.
Lemma recinits_cons rec k t ts rk ts1 key rv ts2 v :
  (exists s, t = TIdent s \/ t = TStr s) -> starts_with_if (t :: ts) = false ->
  rec (t :: ts) = Some (rk, TColon :: ts1) -> into_valid_attr rk = Some key ->
  rec ts1 = Some (rv, ts2) -> into_expr rv = Some v ->
  recinits_loop rec (S k) (t :: ts) =
    match ts2 with
    | TComma :: ts3 => match recinits_loop rec k ts3 with Some (kvs, r) => Some ((key, v) :: kvs, r) | None => None end
    | TRBrace :: ts3 => Some ([(key, v)], ts3)
    | _ => None
    end.
Proof.
  intros (s & [-> | ->]) Hif H1 H2 H3 H4; cbn [recinits_loop]; rewrite Hif, H1, H2, H3, H4; reflexivity.
Qed.

Section RT.
  Variable np : N -> bool.
  Variable ge : N -> bool.
  Notation PT := (print_toks np ge).
  Notation SP := (sp np ge).
  (* show_expr's maybe_with_parens *)
  Definition mwp (x : expr) : list token := wrapt (bare_operand x) (PT x).

  Lemma unescape_opt_escape s : wf_str s = true -> unescape_opt (escape_debug np ge s) = Some s.
  Proof. intros H. unfold unescape_opt. rewrite unescape_escape by exact H. reflexivity. Qed.

  Lemma into_expr_sp e : printable e = true -> into_expr (SP e) = Some e.
  Proof.
    destruct e; try reflexivity. destruct p; try reflexivity.
    cbn [printable sp into_expr]. intros H. rewrite unescape_opt_escape by exact H. reflexivity.
  Qed.

  Section Eqs.
    Variable rec : list token -> pres.
    Variable fuel : nat.

    Lemma member_no_access ts prim ts1 :
      parse_primary rec fuel ts = Some (prim, ts1) -> access_start ts1 = false ->
      parse_member rec fuel ts = Some (prim, ts1).
    Proof. intros H Ha. unfold parse_member. rewrite H, Ha. reflexivity. Qed.

    Lemma primary_at L ts r rest :
      parse_primary rec fuel ts = Some (r, rest) -> (L <= 7)%nat -> follow_ok L rest = true ->
      head_plain ts = true -> not_if_head ts = true -> parse_at L rec fuel ts = Some (r, rest).
    Proof.
      intros H HL Hf Hp Hn. apply (descend rec fuel 7 L); [|exact HL|apply le_n|exact Hf|intros _; exact Hp|exact Hn].
      cbn [parse_at]. apply member_no_access; [exact H|]. apply follow7_no_access. exact (follow_mono L 7 rest Hf HL).
    Qed.

    Lemma member_access ts prim ts1 e :
      parse_primary rec fuel ts = Some (prim, ts1) -> access_start ts1 = true ->
      (forall n, prim <> EName n) -> into_expr prim = Some e ->
      parse_member rec fuel ts = access_loop rec fuel fuel e ts1.
    Proof.
      intros H Ha Hn Hi. unfold parse_member. rewrite H, Ha.
      destruct prim; try (rewrite Hi; reflexivity). exfalso. eapply Hn. reflexivity.
    Qed.

    Lemma access_stop n cur rest :
      access_start rest = false -> access_loop rec fuel n cur rest = Some (EExpr cur, rest).
    Proof. destruct rest as [|[] ?]; intros H; try discriminate; destruct n; reflexivity. Qed.

    Lemma access_dot n cur k rest :
      unreserved k = true -> no_call rest ->
      access_loop rec fuel (S n) cur (TDot :: TIdent k :: rest) = access_loop rec fuel n (GetAttr cur k) rest.
    Proof.
      intros Hu Hr. destruct rest as [|t rest']; cbn [access_loop]; rewrite Hu; [reflexivity|].
      destruct t; try reflexivity. contradiction.
    Qed.

    Lemma access_index n cur raw k rest :
      rec (TStr raw :: TRBrack :: rest) = Some (EStr raw, TRBrack :: rest) -> unescape_opt raw = Some k ->
      access_loop rec fuel (S n) cur (TLBrack :: TStr raw :: TRBrack :: rest)
      = access_loop rec fuel n (GetAttr cur k) rest.
    Proof. intros H Hu. cbn [access_loop]. rewrite H, Hu. reflexivity. Qed.

    Lemma parse_rel_relop ts r t ts2 op r2 ts3 a b e :
      parse_add rec fuel ts = Some (r, t :: ts2) -> relop_of t = Some op ->
      parse_add rec fuel ts2 = Some (r2, ts3) -> rel_continues ts3 = false ->
      into_expr r = Some a -> into_expr r2 = Some b -> mk_rel op a b = Some e ->
      parse_rel rec fuel ts = Some (EExpr e, ts3).
    Proof.
      intros H1 H2 H3 H4 H5 H6 H7. unfold parse_rel. rewrite H1, H2, H3, H4, H5, H6, H7. reflexivity.
    Qed.

    Lemma parse_rel_has ts r ts2 a attrs ts3 e :
      parse_add rec fuel ts = Some (r, tid "has" :: ts2) -> into_expr r = Some a ->
      parse_has_rhs ts2 = Some (attrs, ts3) -> extended_has a attrs = Some e ->
      parse_rel rec fuel ts = Some (EExpr e, ts3).
    Proof.
      intros H1 H2 H3 H4. unfold parse_rel. rewrite H1.
      change (relop_of (tid "has")) with (@None relop). cbv iota. unfold tid at 1.
      change (kw "has" (ascii "has")) with true. cbv iota.
      rewrite H2, H3, H4. reflexivity.
    Qed.

    Lemma parse_rel_like ts r ts2 raw ts3 a p :
      parse_add rec fuel ts = Some (r, tid "like" :: ts2) -> into_expr r = Some a ->
      parse_add rec fuel ts2 = Some (EStr raw, ts3) -> to_pattern raw = UOk p ->
      parse_rel rec fuel ts = Some (EExpr (Like a p), ts3).
    Proof.
      intros H1 H2 H3 H4. unfold parse_rel. rewrite H1.
      change (relop_of (tid "like")) with (@None relop). cbv iota. unfold tid at 1.
      change (kw "has" (ascii "like")) with false. change (kw "like" (ascii "like")) with true. cbv iota.
      rewrite H3, H2, H4. reflexivity.
    Qed.

    Lemma parse_rel_is ts r ts2 rt ts3 a n :
      parse_add rec fuel ts = Some (r, tid "is" :: ts2) -> into_expr r = Some a ->
      parse_add rec fuel ts2 = Some (rt, ts3) ->
      type_name_of rt = Some n ->
      match ts3 with TIdent s3 :: _ => kw "in" s3 = false | _ => True end ->
      parse_rel rec fuel ts = Some (EExpr (Is a n), ts3).
    Proof.
      intros H1 H2 H3 H4 H5. unfold type_name_of in H4. unfold parse_rel. rewrite H1.
      change (relop_of (tid "is")) with (@None relop). cbv iota. unfold tid at 1.
      change (kw "has" (ascii "is")) with false. change (kw "like" (ascii "is")) with false.
      change (kw "is" (ascii "is")) with true. cbv iota.
      rewrite H3, H2, H4. destruct ts3 as [|t3 ts4]; [reflexivity|].
      destruct t3; try reflexivity. rewrite H5. reflexivity.
    Qed.

    Lemma add_loop_stop n acc rest : add_start rest = false -> add_loop rec fuel n acc rest = Some (EExpr acc, rest).
    Proof. destruct rest as [|[] ?]; intros H; try discriminate; destruct n; reflexivity. Qed.
    Lemma mul_loop_stop n acc rest : mul_start rest = false -> mul_loop rec fuel n acc rest = Some (EExpr acc, rest).
    Proof. destruct rest as [|[] ?]; intros H; try discriminate; destruct n; reflexivity. Qed.
    Lemma and_loop_stop n acc rest : match rest with TAndAnd :: _ => False | _ => True end ->
      and_loop rec fuel n acc rest = Some (EExpr acc, rest).
    Proof. destruct rest as [|[] ?]; intros H; try contradiction; destruct n; reflexivity. Qed.
    Lemma or_loop_stop n acc rest : match rest with TOrOr :: _ => False | _ => True end ->
      or_loop rec fuel n acc rest = Some (EExpr acc, rest).
    Proof. destruct rest as [|[] ?]; intros H; try contradiction; destruct n; reflexivity. Qed.

    Lemma add_loop_plus n acc ts2 r2 rest b :
      parse_mul rec fuel ts2 = Some (r2, rest) -> into_expr r2 = Some b ->
      add_loop rec fuel (S n) acc (TPlus :: ts2) = add_loop rec fuel n (BinApp BAdd acc b) rest.
    Proof. intros H Hi. cbn [add_loop]. rewrite H, Hi. reflexivity. Qed.
    Lemma add_loop_minus n acc ts2 r2 rest b :
      parse_mul rec fuel ts2 = Some (r2, rest) -> into_expr r2 = Some b ->
      add_loop rec fuel (S n) acc (TMinus :: ts2) = add_loop rec fuel n (BinApp BSub acc b) rest.
    Proof. intros H Hi. cbn [add_loop]. rewrite H, Hi. reflexivity. Qed.
    Lemma mul_loop_star n acc ts2 r2 rest b :
      parse_unary rec fuel ts2 = Some (r2, rest) -> into_expr r2 = Some b ->
      mul_loop rec fuel (S n) acc (TStar :: ts2) = mul_loop rec fuel n (BinApp BMul acc b) rest.
    Proof. intros H Hi. cbn [mul_loop]. rewrite H, Hi. reflexivity. Qed.
    Lemma and_loop_step n acc ts2 r2 rest b :
      parse_rel rec fuel ts2 = Some (r2, rest) -> into_expr r2 = Some b ->
      and_loop rec fuel (S n) acc (TAndAnd :: ts2) = and_loop rec fuel n (mk_and acc b) rest.
    Proof. intros H Hi. cbn [and_loop]. rewrite H, Hi. reflexivity. Qed.
    Lemma or_loop_step n acc ts2 r2 rest b :
      parse_and rec fuel ts2 = Some (r2, rest) -> into_expr r2 = Some b ->
      or_loop rec fuel (S n) acc (TOrOr :: ts2) = or_loop rec fuel n (mk_or acc b) rest.
    Proof. intros H Hi. cbn [or_loop]. rewrite H, Hi. reflexivity. Qed.

    Lemma parse_add_enter ts r t ts2 a :
      parse_mul rec fuel ts = Some (r, t :: ts2) -> add_start (t :: ts2) = true -> into_expr r = Some a ->
      parse_add rec fuel ts = add_loop rec fuel fuel a (t :: ts2).
    Proof. intros H Hs Hi. unfold parse_add. rewrite H, Hs, Hi. reflexivity. Qed.
    Lemma parse_mul_enter ts r ts2 a :
      parse_unary rec fuel ts = Some (r, TStar :: ts2) -> into_expr r = Some a ->
      parse_mul rec fuel ts = mul_loop rec fuel fuel a (TStar :: ts2).
    Proof. intros H Hi. unfold parse_mul. rewrite H. cbn [mul_start]. rewrite Hi. reflexivity. Qed.
    Lemma parse_and_enter ts r ts2 a :
      parse_rel rec fuel ts = Some (r, TAndAnd :: ts2) -> into_expr r = Some a ->
      parse_and rec fuel ts = and_loop rec fuel fuel a (TAndAnd :: ts2).
    Proof. intros H Hi. unfold parse_and. rewrite H, Hi. reflexivity. Qed.
    Lemma parse_or_enter ts r ts2 a :
      parse_and rec fuel ts = Some (r, TOrOr :: ts2) -> into_expr r = Some a ->
      parse_or rec fuel ts = or_loop rec fuel fuel a (TOrOr :: ts2).
    Proof. intros H Hi. unfold parse_or. rewrite H, Hi. reflexivity. Qed.

    Lemma parse_add_op ts r t op ts2 r2 rest a b :
      parse_mul rec fuel ts = Some (r, t :: ts2) ->
      (t = TPlus /\ op = BAdd \/ t = TMinus /\ op = BSub) -> fuel <> O ->
      parse_mul rec fuel ts2 = Some (r2, rest) -> add_start rest = false ->
      into_expr r = Some a -> into_expr r2 = Some b ->
      parse_add rec fuel ts = Some (EExpr (BinApp op a b), rest).
    Proof.
      intros H1 Ht Hf H2 H3 H4 H5. destruct (proj1 (Nat.neq_0_r _) Hf) as [k Ek].
      destruct Ht as [[-> ->]|[-> ->]]; rewrite (parse_add_enter _ _ _ _ _ H1 eq_refl H4).
      - pose proof (add_loop_plus k a ts2 r2 rest b H2 H5) as E. rewrite <- Ek in E. rewrite E.
        apply add_loop_stop. exact H3.
      - pose proof (add_loop_minus k a ts2 r2 rest b H2 H5) as E. rewrite <- Ek in E. rewrite E.
        apply add_loop_stop. exact H3.
    Qed.

    Lemma parse_mul_op ts r ts2 r2 rest a b :
      parse_unary rec fuel ts = Some (r, TStar :: ts2) -> fuel <> O ->
      parse_unary rec fuel ts2 = Some (r2, rest) -> mul_start rest = false ->
      into_expr r = Some a -> into_expr r2 = Some b ->
      parse_mul rec fuel ts = Some (EExpr (BinApp BMul a b), rest).
    Proof.
      intros H1 Hf H2 H3 H4 H5. destruct (proj1 (Nat.neq_0_r _) Hf) as [k Ek]. rewrite (parse_mul_enter _ _ _ _ H1 H4).
      pose proof (mul_loop_star k a ts2 r2 rest b H2 H5) as E. rewrite <- Ek in E. rewrite E.
      apply mul_loop_stop. exact H3.
    Qed.

    Lemma parse_and_op ts r ts2 r2 rest a b :
      parse_rel rec fuel ts = Some (r, TAndAnd :: ts2) -> fuel <> O ->
      parse_rel rec fuel ts2 = Some (r2, rest) -> match rest with TAndAnd :: _ => False | _ => True end ->
      into_expr r = Some a -> into_expr r2 = Some b ->
      parse_and rec fuel ts = Some (EExpr (mk_and a b), rest).
    Proof.
      intros H1 Hf H2 H3 H4 H5. destruct (proj1 (Nat.neq_0_r _) Hf) as [k Ek]. rewrite (parse_and_enter _ _ _ _ H1 H4).
      pose proof (and_loop_step k a ts2 r2 rest b H2 H5) as E. rewrite <- Ek in E. rewrite E.
      apply and_loop_stop. exact H3.
    Qed.

    Lemma parse_or_op ts r ts2 r2 rest a b :
      parse_and rec fuel ts = Some (r, TOrOr :: ts2) -> fuel <> O ->
      parse_and rec fuel ts2 = Some (r2, rest) -> match rest with TOrOr :: _ => False | _ => True end ->
      into_expr r = Some a -> into_expr r2 = Some b ->
      parse_or rec fuel ts = Some (EExpr (mk_or a b), rest).
    Proof.
      intros H1 Hf H2 H3 H4 H5. destruct (proj1 (Nat.neq_0_r _) Hf) as [k Ek]. rewrite (parse_or_enter _ _ _ _ H1 H4).
      pose proof (or_loop_step k a ts2 r2 rest b H2 H5) as E. rewrite <- Ek in E. rewrite E.
      apply or_loop_stop. exact H3.
    Qed.

    Lemma parse_unary_not ts r rest a :
      head_plain ts = true -> parse_member rec fuel ts = Some (r, rest) -> into_expr r = Some a ->
      parse_unary rec fuel (TBang :: ts) = Some (EExpr (UnApp UNot a), rest).
    Proof.
      intros Hp H Hi. unfold parse_unary. cbn [count_tok is_bang].
      rewrite (proj1 (plain_counts ts Hp)). cbn [Nat.ltb Nat.leb]. rewrite H, Hi. reflexivity.
    Qed.

    Lemma parse_unary_neg_paren ts r rest a :
      parse_member rec fuel (TLParen :: ts) = Some (r, rest) -> into_expr r = Some a ->
      parse_unary rec fuel (TMinus :: TLParen :: ts) = Some (EExpr (UnApp UNeg a), rest).
    Proof.
      intros H Hi. unfold parse_unary. cbn [count_tok is_bang is_minus Nat.ltb Nat.leb].
      rewrite H, Hi. reflexivity.
    Qed.

    Lemma primary_paren ts r rest e :
      rec ts = Some (r, TRParen :: rest) -> into_expr r = Some e ->
      parse_primary rec fuel (TLParen :: ts) = Some (EExpr e, rest).
    Proof. intros H Hi. cbn [parse_primary]. rewrite H, Hi. reflexivity. Qed.
  End Eqs.

  Lemma str_tok_at rec fuel L raw rest :
    (L <= 7)%nat -> follow_ok L rest = true ->
    parse_at L rec fuel (TStr raw :: rest) = Some (EStr raw, rest).
  Proof.
    intros HL Hf. apply primary_at; try assumption; reflexivity.
  Qed.

  (* a negative literal prints as (-N): a parenthesised expression whose inside is read by
     parse_unary's -N literal rule *)
  Lemma neg_lit_primary f fuel z rest :
    (z < 0)%Z -> in_i64 z = true ->
    parse_primary (parse_expr (S f)) fuel (TLParen :: TMinus :: TNum (Z.to_N (- z)) :: TRParen :: rest)
      = Some (EExpr (Lit (PLong z)), rest).
  Proof.
    intros Hz Hi. eapply primary_paren with (r := EExpr (Lit (PLong z))); [|reflexivity].
    cbn [parse_expr]. apply (descend (parse_expr f) f 6 0); [|lia|lia|reflexivity|discriminate|reflexivity].
    cbn [parse_at]. unfold parse_unary. cbn [count_tok is_bang is_minus Nat.ltb Nat.leb access_start].
    unfold in_i64 in Hi. apply andb_true_iff in Hi. destruct Hi as [Hmin _]. apply Z.leb_le in Hmin.
    replace (Z.to_N (- z) <=? i64_max_N + 1) with true
      by (symmetry; apply N.leb_le; unfold i64_max_N; unfold i64_min in Hmin; lia).
    cbn [iter_un]. rewrite Z2N.id by lia. rewrite Z.opp_involutive. reflexivity.
  Qed.

  Lemma leaf_primary f fuel e rest :
    is_leaf e ->
    printable e = true -> no_path rest = true ->
    parse_primary (parse_expr (S f)) fuel (PT e ++ rest) = Some (SP e, rest).
  Proof.
    intros Hk Hp Hn. destruct e; try contradiction.
    - destruct p as [b|z|s|u].
      + destruct b; cbn [print_toks prim_toks app parse_primary]; unfold tid; cbn [parse_primary];
          rewrite parse_path_nil by exact Hn; reflexivity.
      + cbn [print_toks prim_toks]. cbn [printable] in Hp. destruct (Z.ltb_spec z 0) as [Hz|Hz].
        * apply neg_lit_primary; assumption.
        * unfold in_i64 in Hp. apply andb_true_iff in Hp. destruct Hp as [_ Hmax]. apply Z.leb_le in Hmax.
          cbn [app parse_primary].
          replace (Z.to_N z <=? i64_max_N) with true
            by (symmetry; apply N.leb_le; unfold i64_max_N; unfold i64_max in Hmax; lia).
          rewrite Z2N.id by exact Hz. reflexivity.
      + reflexivity.
      + cbn [print_toks prim_toks uid_toks]. cbn [printable] in Hp. apply andb_true_iff in Hp.
        destruct Hp as [Hty Hid]. destruct u as [ty id]. cbn [uty ueid] in *.
        destruct ty as [|c p]; [discriminate|]. unfold uid_toks. cbn [uty ueid]. rewrite name_toks_cons.
        rewrite <- app_assoc. cbn [app parse_primary].
        unfold tstr. rewrite parse_path_uid.
        rewrite (name_ok_unreserved _ Hty), unescape_opt_escape by exact Hid. reflexivity.
    - destruct v; cbn [print_toks show_var app parse_primary];
        rewrite parse_path_nil by exact Hn; reflexivity.
    - destruct s; reflexivity.
  Qed.
End RT.
