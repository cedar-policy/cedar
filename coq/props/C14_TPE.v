(* C14 — type-aware partial evaluation (TPE) and permission queries are sound.
   Model: coq/model/TPE.v; lemmas: proofs/TPEProofs.v, TPESound.v, TPELink.v, TPETyping.v, where the predicates
   of the statements are defined as well (`policy_sound`; `Completes`, `Side`, `sim`; `annotates`, `policy_side`;
   `tpe_fragment`).  `cx` is the extension-function library (any).
   The theorems named `_partial` have the side condition `Side` as a HYPOTHESIS: operands of && / || are booleans when
   they evaluate, and a left operand whose interpreted form has can_error = false does not error.  Validation on a
   conformant completion is expected to give it; it is not derived from the typechecker model
   (c14_noerr_from_typing_partial gives its two ingredients on a small fragment).  `Side` is stated with
   TPESound.boolish, a predicate on residuals; the bare name `boolish` means TypecheckProofs.boolish in this file
   (a boolean test on expressions), which no statement here uses.  `Completes` requires the known attributes /
   tags / context to be identical to the concrete ones (canonical values) and the known ancestor set to be equal as
   a set. *)
From Cedar Require Import TPE TPEProofs TPESound TPELink Typecheck TypecheckProofs TPETyping.

(* policies(), policy_set(), get_policy(id) and the set reauthorize evaluates are the same id -> residual map
   (what finding F-a violates). *)
Theorem c14_views :
  forall m : list rpolicy,
    view_policy_set m = view_policies m /\ view_reauth m = view_policies m /\
    (forall i, view_get m i = assoc_get i (view_policies m)) /\
    (forall i, view_get m i = assoc_get i (view_policy_set m)) /\
    (forall i, view_get m i = assoc_get i (view_reauth m)).
Proof.
  intros m. unfold view_reauth. rewrite view_policy_set_eq. repeat split; intros i; apply view_get_eq.
Qed.
Print Assumptions c14_views.

(* a definite TPE decision is the decision of reauthorization on EVERY request and store *)
Theorem c14_decision_reauthorize :
  forall cx (rs : list rpolicy) (d : decision), tpe_decision rs = Some d ->
  forall (q : request) (es : entities), rdecision (reauthorize cx rs q es) = d.
Proof. exact decision_reauthorize. Qed.
Print Assumptions c14_decision_reauthorize.

(* decision / reauthorize / queries against the ORIGINAL policies, given per-policy soundness as a hypothesis: these
   hold for any library and any residuals *)
Theorem c14_reauthorize_concrete :
  forall cx (q : request) (es : entities) (ps : list policy) (rs : list rpolicy),
    Forall2 (policy_sound cx q es) ps rs ->
    rdecision (is_authorized ps q es) = rdecision (reauthorize cx rs q es).
Proof. exact reauthorize_concrete. Qed.
Print Assumptions c14_reauthorize_concrete.

Theorem c14_decision_concrete :
  forall cx (q : request) (es : entities) (ps : list policy) (rs : list rpolicy) (d : decision),
    Forall2 (policy_sound cx q es) ps rs ->
    tpe_decision rs = Some d -> rdecision (is_authorized ps q es) = d.
Proof. exact decision_concrete. Qed.
Print Assumptions c14_decision_concrete.

Theorem c14_query_exact :
  forall cx (fill : uid -> request) (hole : etype) (rs : list rpolicy) (es : entities),
    query cx fill hole rs es =
    filter (fun u => decision_eqb (rdecision (reauthorize cx rs (fill u) es)) Allow)
           (filter (fun u => name_eqb (uty u) hole) (map fst es)).
Proof. exact query_exact. Qed.
Print Assumptions c14_query_exact.

Theorem c14_query_brute :
  forall cx (fill : uid -> request) (hole : etype) (ps : list policy) (rs : list rpolicy) (es : entities),
    (forall u, Forall2 (policy_sound cx (fill u) es) ps rs) ->
    query cx fill hole rs es =
    filter (fun u => decision_eqb (rdecision (is_authorized ps (fill u) es)) Allow)
           (filter (fun u => name_eqb (uty u) hole) (map fst es)).
Proof. intros cx fill hole ps rs es H. apply query_brute_candidates. intros u _ _. apply H. Qed.
Print Assumptions c14_query_brute.

(* query_action: a listed Some Allow is sound, and an action whose decision is not a definite Deny is listed *)
Theorem c14_query_action_label :
  forall cx (per : list (uid * list rpolicy)) (a : uid), In (a, Some Allow) (query_action per) ->
    exists rs, In (a, rs) per /\ forall q es, rdecision (reauthorize cx rs q es) = Allow.
Proof.
  intros cx per a H. unfold query_action in H. apply filter_In in H as [H _].
  apply in_map_iff in H as [[a' rs] [E Hin]]. cbn in E. inversion E; subst. exists rs. split; [exact Hin|].
  intros q es. apply decision_reauthorize. assumption.
Qed.
Print Assumptions c14_query_action_label.

Theorem c14_query_action_complete :
  forall cx (per : list (uid * list rpolicy)) (a : uid) (rs : list rpolicy) (q : request) (es : entities),
    In (a, rs) per -> rdecision (reauthorize cx rs q es) = Allow ->
    exists d, In (a, d) (query_action per) /\ d <> Some Deny.
Proof.
  intros cx per a rs q es Hin Hd. exists (tpe_decision rs).
  assert (Hn : tpe_decision rs <> Some Deny).
  { intros E. rewrite (decision_reauthorize cx rs Deny E q es) in Hd. discriminate. }
  split; [|exact Hn].
  unfold query_action. apply filter_In. split.
  - apply in_map_iff. exists (a, rs). split; [reflexivity|exact Hin].
  - cbn. destruct (tpe_decision rs) as [[|]|]; try reflexivity. contradiction Hn; reflexivity.
Qed.
Print Assumptions c14_query_action_complete.

(* the `&& false` rule is unsound for an erroring left operand: why can_error exists *)
Theorem c14_and_false_needs_noerr :
  forall cx q es l e, reval cx q es l = Err e ->
    reval cx q es (RAnd l (RVal (VBool false))) <> reval cx q es (RVal (VBool false)).
Proof. intros cx q es l e H. cbn. rewrite H. cbn. discriminate. Qed.
Print Assumptions c14_and_false_needs_noerr.

(* every arm of `interp`: eval (interp r) ~ eval r (same value, or both error) — literals, variables (known / unknown
   principal, resource, context), && / || incl. the can_error rule, if, !, neg, isEmpty, ==, <, <=, + - *, in (known /
   unknown ancestors, entity and set right operands, empty set), getAttr / hasAttr (records, known / unknown
   attributes, missing entities), is (incl. unknown principal / resource), like, getTag / hasTag (tags None vs known),
   contains*, set / record literals, extension calls *)
Theorem c14_interp_sound_partial :
  forall cx pq pes q es, Completes pq pes q es ->
  forall r, Side cx pq pes q es r -> sim (reval cx q es (interp cx pq pes r)) (reval cx q es r).
Proof. exact interp_sound. Qed.
Print Assumptions c14_interp_sound_partial.

(* Residual::try_from_typed_expr preserves the meaning of the condition *)
Theorem c14_residual_of_typed_expr :
  forall sl q es te r, of_texpr sl te = Some r -> reval call_ext q es r = eval sl q es (erase te).
Proof. exact reval_of_texpr. Qed.
Print Assumptions c14_residual_of_typed_expr.

(* a residual policy is sat / unsat / erroring exactly when its original is *)
Theorem c14_policy_sound_partial :
  forall pq pes q es tp p rp,
    Completes pq pes q es -> annotates tp p -> policy_side pq pes q es tp ->
    tpe_policy call_ext pq pes tp = Some rp -> policy_sound call_ext q es p rp.
Proof. exact policy_sound_tpe. Qed.
Print Assumptions c14_policy_sound_partial.

(* decision / reauthorize / queries against the original policies from Completes, `annotates` (the typed condition is
   the policy's) and Side *)
Theorem c14_decision_sound_partial :
  forall pq pes q es tps ps rs d,
    Completes pq pes q es -> Forall2 annotates tps ps -> Forall (policy_side pq pes q es) tps ->
    tpe call_ext pq pes tps = Some rs -> tpe_decision rs = Some d ->
    rdecision (is_authorized ps q es) = d.
Proof.
  intros pq pes q es tps ps rs d HC HA HS H Hd. apply (decision_concrete call_ext q es ps rs d); [|exact Hd].
  exact (policies_sound_tpe pq pes q es tps ps HC HA HS rs H).
Qed.
Print Assumptions c14_decision_sound_partial.

Theorem c14_reauthorize_sound_partial :
  forall pq pes q es tps ps rs,
    Completes pq pes q es -> Forall2 annotates tps ps -> Forall (policy_side pq pes q es) tps ->
    tpe call_ext pq pes tps = Some rs ->
    rdecision (is_authorized ps q es) = rdecision (reauthorize call_ext rs q es).
Proof.
  intros pq pes q es tps ps rs HC HA HS H. apply reauthorize_concrete.
  exact (policies_sound_tpe pq pes q es tps ps HC HA HS rs H).
Qed.
Print Assumptions c14_reauthorize_sound_partial.

Theorem c14_query_sound_partial :
  forall pq pes fill hole es tps ps rs,
    (forall u, Completes pq pes (fill u) es) -> Forall2 annotates tps ps ->
    (forall u, Forall (policy_side pq pes (fill u) es) tps) ->
    tpe call_ext pq pes tps = Some rs ->
    query call_ext fill hole rs es =
    filter (fun u => decision_eqb (rdecision (is_authorized ps (fill u) es)) Allow)
           (filter (fun u => name_eqb (uty u) hole) (map fst es)).
Proof.
  intros pq pes fill hole es tps ps rs HC HA HS H. apply (query_sound_candidates pq pes fill hole es tps); auto.
Qed.
Print Assumptions c14_query_sound_partial.

(* From typing towards Side: on `tpe_fragment` (literals, variables, &&, ||, !, ==, has / get on the context; a strict
   part of the fragment C03's typechecker soundness covers) a typechecked expression does not error on a request of the
   environment and yields a value of its type; a Bool-typed one yields a boolean (the TPESound.boolish / no-error
   premises of Side).  PARTIAL: only this fragment, and the derivation of Side for every sub-residual is not
   assembled. *)
Theorem c14_noerr_from_typing_partial :
  forall m sch env q es,
  schema_wf sch = true ->
  (forall t, is_action_type t = true -> find_etype sch t = None) ->
  decl_ty_ok (re_context env) = true ->
  env_ok env q ->
  store_ok sch es ->
  forall e, tpe_fragment e = true ->
  forall cs t cs', caps_hold q es cs -> tc m sch env cs e = Some (t, cs') ->
  exists v, eval [] q es e = Ok v /\ TypeConforms v t.
Proof. exact noerr_from_typing. Qed.
Print Assumptions c14_noerr_from_typing_partial.

(* non-vacuity: a response with a definite Allow, one with no decision, the dropped-operand rule at work *)
Example c14_example :
  let u := mkUid [[85%N]] [97%N] in
  let pq := mkPRequest [[85%N]] None u [[85%N]] (Some [97%N]) None in
  let r1 := interp call_ext pq [] (RAnd (RBin BEq (RVar Principal) (RVar Resource)) (RVal (VBool false))) in
  let r2 := interp call_ext pq [] (RAnd (RBin BLess (RBin BAdd (RGetAttr (RVar Principal) [120%N]) (RVal (VLong 1))) (RVal (VLong 0)))
                               (RVal (VBool false))) in
  bucket_of r1 = KFalse /\ bucket_of r2 = KResidual /\
  tpe_decision [mkRPolicy [49%N] Permit (RVal (VBool true)); mkRPolicy [50%N] Forbid r1] = Some Allow /\
  tpe_decision [mkRPolicy [49%N] Permit (RVal (VBool true)); mkRPolicy [50%N] Forbid r2] = None /\
  request_consistent pq (mkRequest u u u []) = true.
Proof. vm_compute. repeat split; reflexivity. Qed.

(* non-vacuity of the hypotheses of the soundness theorems: a consistent completion and a residual with a dropped
   operand satisfying the side condition *)
Example c14_sound_example :
  let u := mkUid [[85%N]] [97%N] in
  let pq := mkPRequest [[85%N]] None u [[85%N]] (Some [97%N]) None in
  let q := mkRequest u u u [] in
  let r := RAnd (RBin BEq (RVar Principal) (RVar Resource)) (RVal (VBool false)) in
  Completes pq [] q [] /\ Side call_ext pq [] q [] r /\ bucket_of (interp call_ext pq [] r) = KFalse.
Proof.
  cbv zeta. split; [|split].
  - constructor; cbn; try reflexivity; intros; try discriminate.
    inversion H; reflexivity.
  - cbn. repeat split; try exact I.
    + intros v H. vm_compute in H. inversion H. exists true. reflexivity.
    + intros v H. vm_compute in H. inversion H. exists false. reflexivity.
    + intros _ e H. vm_compute in H. discriminate.
  - vm_compute. reflexivity.
Qed.
