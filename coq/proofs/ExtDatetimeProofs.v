From Coq Require Import Lia.
From Cedar Require Import ExtParse ExtParseProofs.
Open Scope list_scope.
Open Scope Z_scope.

Definition digs (n : nat) (ds : str) (v : Z) : Prop :=
  length ds = n /\ all_ascii_digits ds = true /\ digits_val ds = v.

Lemma take_n_sound n : forall acc s v r,
  take_n_digits n acc s = Some (v, r) ->
  exists ds, s = ds ++ r /\ length ds = n /\ all_ascii_digits ds = true /\
             v = fold_left (fun a c => a * 10 + digit_val c) ds acc.
Proof.
  induction n as [|n IH]; intros acc s v r H; cbn [take_n_digits] in H.
  - injection H as <- <-. exists []. auto.
  - destruct s as [|c s]; [discriminate|]. destruct (is_ascii_digit c) eqn:Dc; [|discriminate].
    destruct (IH _ _ _ _ H) as (ds & -> & <- & A & ->). exists (c :: ds).
    cbn [app length all_ascii_digits fold_left]. rewrite Dc, A. auto.
Qed.

Lemma take_n_digs n s v r :
  take_n_digits n 0 s = Some (v, r) -> exists ds, s = ds ++ r /\ digs n ds v.
Proof.
  intros T. destruct (take_n_sound n 0 s v r T) as (ds & E & L & A & V).
  exists ds. unfold digs, digits_val. auto.
Qed.

Lemma take_bind {A} n s (k : Z * str -> option A) x :
  obind (take_n_digits n 0 s) k = Some x ->
  exists ds v r, s = ds ++ r /\ digs n ds v /\ k (v, r) = Some x.
Proof.
  destruct (take_n_digits n 0 s) as [[v r]|] eqn:T; [|discriminate]. intros H.
  destruct (take_n_digs n s v r T) as (ds & E & D). exists ds, v, r. auto.
Qed.

Lemma three_fields_sound n sep s a b c r :
  (let? (a, r) := take_n_digits n 0 s in
   let? r := expect sep r in
   let? (b, r) := take_n_digits 2 0 r in
   let? r := expect sep r in
   let? (c, r) := take_n_digits 2 0 r in
   Some (a, b, c, r)) = Some (a, b, c, r) ->
  exists A B C, s = A ++ sep :: B ++ sep :: C ++ r /\ digs n A a /\ digs 2 B b /\ digs 2 C c.
Proof.
  intros H.
  apply take_bind in H as (A & a0 & r0 & -> & DA & H).
  apply expect_bind in H as (r1 & -> & H).
  apply take_bind in H as (B & b0 & r2 & -> & DB & H).
  apply expect_bind in H as (r3 & -> & H).
  apply take_bind in H as (C & c0 & r4 & -> & DC & H).
  injection H as <- <- <- <-. exists A, B, C. auto.
Qed.

Lemma date_pattern_sound s y m d r :
  date_pattern s = Some (y, m, d, r) ->
  exists Y M D, s = Y ++ 45%N :: M ++ 45%N :: D ++ r /\ digs 4 Y y /\ digs 2 M m /\ digs 2 D d.
Proof. exact (three_fields_sound 4 45%N s y m d r). Qed.

Lemma hms_pattern_sound s h m sec r :
  hms_pattern s = Some (h, m, sec, r) ->
  exists H M SE, s = 84%N :: H ++ 58%N :: M ++ 58%N :: SE ++ r /\ digs 2 H h /\ digs 2 M m /\ digs 2 SE sec.
Proof.
  unfold hms_pattern. intros H. apply expect_bind in H as (r0 & -> & H).
  destruct (three_fields_sound 2 58%N r0 h m sec r H) as (HH & M & SE & -> & D).
  exists HH, M, SE. auto.
Qed.

(* a missing fraction counts as 0, as in datetime_parse *)
Definition frac_shape (fs : str) (ms : option Z) : Prop :=
  let f := match ms with Some v => v | None => 0 end in
  (fs = [] /\ f = 0) \/ exists F, fs = 46%N :: F /\ digs 3 F f.

Definition off_shape (os : str) (off : option (bool * Z * Z)) : Prop :=
  (os = [90%N] /\ off = None) \/
  exists sg HH MM hh mm, os = sg :: HH ++ MM /\ digs 2 HH hh /\ digs 2 MM mm /\
    (sg = 43%N \/ sg = 45%N) /\ off = Some (N.eqb sg 43, hh, mm).

Lemma ms_offset_sound s ms off :
  ms_offset_pattern s = Some (ms, off) ->
  exists fs os, s = fs ++ os /\ frac_shape fs ms /\ off_shape os off.
Proof.
  unfold ms_offset_pattern.
  lazymatch goal with |- (let '(_, _) := ?p in _) = _ -> _ => destruct p as [ms0 r] eqn:P end.
  assert (Pre : exists fs, s = fs ++ r /\ frac_shape fs ms0).
  { unfold frac_shape. destruct s as [|c t]; [inversion P; exists []; auto|]. rewrite match_dot in P.
    destruct (N.eqb_spec c 46) as [->|_]; [|inversion P; exists []; auto].
    destruct (take_n_digits 3 0 t) as [[f r'']|] eqn:T; inversion P; subst; [|exists []; auto].
    destruct (take_n_digs 3 t f r T) as (F & -> & DF).
    exists (46%N :: F). split; [reflexivity|]. right. exists F. auto. }
  clear P. destruct Pre as (fs & -> & Hfs). intros H. exists fs, r. split; [reflexivity|].
  destruct r as [|sg r1]; [discriminate|]. rewrite match_zulu in H.
  destruct (N.eqb_spec sg 90) as [->|_].
  { destruct r1; [|discriminate]. inversion H; subst. split; [assumption|left; auto]. }
  destruct ((sg =? 43)%N || (sg =? 45)%N) eqn:SG; [|discriminate].
  apply orb_true_iff in SG. rewrite !N.eqb_eq in SG.
  apply take_bind in H as (HH & hh & r2 & -> & DH & H).
  apply take_bind in H as (MM & mm & r3 & -> & DM & H).
  destruct r3; [|discriminate]. inversion H; subst. split; [assumption|].
  right. exists sg, HH, MM, hh, mm. rewrite app_nil_r. auto.
Qed.

Definition dt_spec (s : str) (ms : Z) : Prop :=
  exists Y M D y mo d tail,
    s = Y ++ 45%N :: M ++ 45%N :: D ++ tail /\ digs 4 Y y /\ digs 2 M mo /\ digs 2 D d /\
    valid_ymd y mo d = true /\
    ((tail = [] /\ ms = days_from_civil y mo d * 86400000) \/
     exists H MI SE h mi sec fs f os osec,
       tail = 84%N :: H ++ 58%N :: MI ++ 58%N :: SE ++ fs ++ os /\
       digs 2 H h /\ digs 2 MI mi /\ digs 2 SE sec /\ h < 24 /\ mi < 60 /\ sec < 60 /\
       ((fs = [] /\ f = 0) \/ exists F, fs = 46%N :: F /\ digs 3 F f) /\
       ((os = [90%N] /\ osec = 0) \/
        exists sg HH MM hh mm, os = sg :: HH ++ MM /\ digs 2 HH hh /\ digs 2 MM mm /\ hh < 24 /\ mm < 60 /\
          ((sg = 43%N /\ osec = hh * 3600 + mm * 60) \/ (sg = 45%N /\ osec = - (hh * 3600 + mm * 60)))) /\
       ms = (days_from_civil y mo d * 86400 + h * 3600 + mi * 60 + sec - osec) * 1000 + f).

Lemma valid_hms_milli_bounds h m sec ms :
  valid_hms_milli h m sec ms = true -> h < 24 /\ m < 60 /\ sec < 60.
Proof.
  unfold valid_hms_milli. intros H.
  apply andb_true_iff in H. destruct H as [H _]. apply andb_true_iff in H. destruct H as [H V3].
  apply andb_true_iff in H. destruct H as [V1 V2]. apply Z.ltb_lt in V1, V2, V3. auto.
Qed.

(* splits without unfolding `digs` *)
Ltac conjs := repeat match goal with |- _ /\ _ => split end; try assumption; try reflexivity.

Theorem datetime_parse_sound s ms : datetime_parse s = Some ms -> dt_spec s ms.
Proof.
  unfold datetime_parse. intros H.
  destruct (date_pattern s) as [[[[y mo] d] r]|] eqn:DP; [|discriminate].
  destruct (date_pattern_sound _ _ _ _ _ DP) as (Y & M & D & Es & DY & DM & DD). clear DP.
  exists Y, M, D, y, mo, d, r. do 4 (split; [assumption|]). clear Es DY DM DD.
  (* the day count stays a variable: inverting `Some _ = Some ms` would evaluate into it *)
  generalize dependent (days_from_civil y mo d). intros dd H.
  destruct r as [|r0 rt].
  - destruct (valid_ymd y mo d); [|discriminate]. injection H as <-. auto.
  - apply obind_some in H. destruct H as ([[[h mi] sec] r2] & HP & H).
    destruct (hms_pattern_sound _ _ _ _ _ HP) as (HH & MI & SE & -> & DH & DMI & DS). clear HP.
    apply obind_some in H. destruct H as ([fo off] & MO & H).
    destruct (ms_offset_sound _ _ _ MO) as (fs & os & -> & Hf & Ho). clear MO.
    cbv beta iota in H. destruct (valid_ymd y mo d); [|discriminate]. cbn [obind] in H.
    split; [reflexivity|right].
    unfold frac_shape in Hf. set (f := match fo with Some v => v | None => 0 end) in *.
    destruct (valid_hms_milli h mi sec f) eqn:VT; [|discriminate].
    apply valid_hms_milli_bounds in VT. destruct VT as (V1 & V2 & V3).
    destruct Ho as [[-> ->]|(sg & OH & OM & hh & mm & -> & DOH & DOM & Hsg & ->)].
    + injection H as <-. exists HH, MI, SE, h, mi, sec, fs, f, [90%N], 0.
      conjs; [left; conjs|ring].
    + destruct ((hh <? 24) && (mm <? 60)) eqn:VO; [|discriminate].
      apply andb_true_iff in VO. destruct VO as [O1 O2]. apply Z.ltb_lt in O1, O2.
      injection H as <-.
      exists HH, MI, SE, h, mi, sec, fs, f, (sg :: OH ++ OM),
        (if (sg =? 43)%N then hh * 3600 + mm * 60 else - (hh * 3600 + mm * 60)).
      conjs; [right|ring]. exists sg, OH, OM, hh, mm. conjs.
      destruct Hsg as [-> | ->]; [left|right]; split; reflexivity.
Qed.
