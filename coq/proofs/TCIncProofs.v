(* C04: the incremental layer computes what the spec layer computes, in the three steps (a), (b), (c)
   of props/C04_TC.v. *)
From Coq Require Import Lia.
From Cedar Require Import TC BaseFacts TCProofs.
Open Scope N_scope.

Lemma reach_trans g a b c : reach g a b -> reach g b c -> reach g a c.
Proof. intros Hab Hbc. induction Hbc; eapply reach_step; eassumption. Qed.

Lemma reach_inv_first g u y : reach g u y ->
  In y (parents_of g u) \/ exists p, In p (parents_of g u) /\ reach g p y.
Proof.
  induction 1 as [p Hp | b p Hb IH Hp].
  - left; exact Hp.
  - right. destruct IH as [Hb1 | [q [Hq Hqb]]].
    + exists b. split; [exact Hb1 | apply reach_parent; exact Hp].
    + exists q. split; [exact Hq | eapply reach_step; eassumption].
Qed.

Lemma reach_in_parents g u a : reach g u a -> In a (flat_map snd g).
Proof. destruct 1 as [p Hp | b p _ Hp]; eapply parents_of_incl; exact Hp. Qed.

Definition acyclic (g : graph) : Prop := forall x, ~ reach g x x.

(* g and g1 differ at the changed nodes only: a path of g1 is a path of g if it starts where no changed
   node can be reached in g *)
Lemma reach_unchanged (changed : uid -> Prop) g g1 x :
  (forall b p, ~ changed b -> In p (parents_of g1 b) -> In p (parents_of g b)) ->
  ~ changed x -> (forall b, reach g x b -> ~ changed b) ->
  forall a, reach g1 x a -> reach g x a.
Proof.
  intros Hsub Hx Hb. induction 1 as [p Hp | b p Hb1 IH Hp].
  - apply reach_parent. exact (Hsub x p Hx Hp).
  - eapply reach_step; [exact IH|]. exact (Hsub b p (Hb b IH) Hp).
Qed.

Lemma reach_mono g g1 x a :
  (forall b p, In p (parents_of g b) -> In p (parents_of g1 b)) -> reach g x a -> reach g1 x a.
Proof. intros Hsub. apply (reach_unchanged (fun _ => False)); [intros b p _; apply Hsub | tauto | tauto]. Qed.

(* g1 keeps every edge of g between nodes other than u: a path of g that does not both start below u and
   end above u cannot pass through u, so it is a path of g1 *)
Lemma reach_avoid u g g1 x a :
  (forall b p, b <> u -> p <> u -> In p (parents_of g b) -> In p (parents_of g1 b)) ->
  x <> u -> reach g x a -> a <> u -> (~ reach g x u \/ ~ reach g u a) -> reach g1 x a.
Proof.
  intros Hsame Hx Hr. induction Hr as [p Hp | b p Hb IH Hp]; intros Ha Hc.
  - apply reach_parent. apply Hsame; assumption.
  - assert (Hbu : b <> u).
    { intros ->. destruct Hc as [Hc|Hc]; [apply Hc; exact Hb | apply Hc; apply reach_parent; exact Hp]. }
    assert (Hcb : ~ reach g x u \/ ~ reach g u b).
    { destruct Hc as [Hc|Hc]; [left; exact Hc|]. right. intros H. apply Hc. eapply reach_step; eassumption. }
    eapply reach_step; [apply IH; assumption|]. apply Hsame; assumption.
Qed.

Lemma find_map_keep (h : uid * node -> uid * node) : (forall kn, fst (h kn) = fst kn) ->
  forall s x, find x (map h s) = option_map (fun n => snd (h (x, n))) (find x s).
Proof.
  intros Hh. induction s as [|[k n] s IH]; intros x; cbn [map find option_map]; [reflexivity|].
  destruct (h (k, n)) as [k' n'] eqn:E. pose proof (Hh (k, n)) as Hk. rewrite E in Hk. cbn [fst] in Hk. subst k'.
  destruct (N.eqb x k) eqn:E2.
  - apply N.eqb_eq in E2. subst x. cbn [option_map]. rewrite E. reflexivity.
  - apply IH.
Qed.

Lemma find_update u f s x :
  find x (update u f s) = option_map (fun n => if N.eqb u x then f n else n) (find x s).
Proof.
  unfold update. rewrite find_map_keep by (intros [k n]; cbn [fst snd]; destruct (N.eqb u k); reflexivity).
  destruct (find x s); [|reflexivity]. cbn [option_map fst snd]. destruct (N.eqb u x); reflexivity.
Qed.

Lemma find_update_same u f s : find u (update u f s) = option_map f (find u s).
Proof. rewrite find_update, N.eqb_refl. reflexivity. Qed.

Lemma find_update_other u x f s : x <> u -> find x (update u f s) = find x s.
Proof.
  intros Hx. rewrite find_update. apply not_eq_sym, N.eqb_neq in Hx. rewrite Hx.
  destruct (find x s); reflexivity.
Qed.

Lemma find_delete u s x : find x (delete u s) = if N.eqb x u then None else find x s.
Proof.
  unfold delete. induction s as [|[k n] s IH]; cbn [filter find fst]; [destruct (N.eqb x u); reflexivity|].
  destruct (N.eqb u k) eqn:E; cbn [negb find].
  - apply N.eqb_eq in E. subst k. rewrite IH. destruct (N.eqb x u); reflexivity.
  - destruct (N.eqb x k) eqn:E2; [|exact IH]. apply N.eqb_eq in E2. subst k. rewrite N.eqb_sym, E. reflexivity.
Qed.

Lemma find_app u s t : find u (s ++ t) = match find u s with Some n => Some n | None => find u t end.
Proof.
  induction s as [|[k n] s IH]; cbn [app find]; [reflexivity|]. destruct (N.eqb u k); [reflexivity | exact IH].
Qed.

(* upsert of a batch, record by record (for c04_upsert_latest): upd_over writes the record of its own uid and
   no other, so folds of it over one batch agree wherever their start stores agree outside the batch *)
Lemma find_upd_over_same s e : find (fst e) (upd_over s e) = Some (mkNode (snd e) []).
Proof.
  unfold upd_over. destruct (find (fst e) s) eqn:E.
  - rewrite find_update_same, E. reflexivity.
  - rewrite find_app, E. cbn [find fst]. rewrite N.eqb_refl. reflexivity.
Qed.

Lemma find_upd_over_other s e u : u <> fst e -> find u (upd_over s e) = find u s.
Proof.
  intros H. unfold upd_over. destruct (find (fst e) s) eqn:E.
  - apply find_update_other. exact H.
  - rewrite find_app. destruct (find u s); [reflexivity|]. cbn [find fst].
    apply N.eqb_neq in H. rewrite H. reflexivity.
Qed.

Lemma fold_upd_over_agree : forall es s s',
  (forall u, ~ In u (map fst es) -> find u s = find u s') ->
  forall u, find u (fold_left upd_over es s) = find u (fold_left upd_over es s').
Proof.
  induction es as [|e es IH]; intros s s' H u; cbn [fold_left].
  - apply H. intros [].
  - apply IH. intros v Hv.
    destruct (N.eq_dec v (fst e)) as [->|Hne].
    + rewrite !find_upd_over_same. reflexivity.
    + rewrite !find_upd_over_other by exact Hne. apply H. intros [Heq|Hin]; [congruence | contradiction].
Qed.

Lemma graph_of_update u f s : (forall n, n_parents (f n) = n_parents n) -> graph_of (update u f s) = graph_of s.
Proof.
  intros Hf. unfold update, graph_of. rewrite map_map. apply map_ext. intros [k n]. cbn [fst snd].
  destruct (N.eqb u k); cbn [fst snd]; [rewrite Hf|]; reflexivity.
Qed.

Lemma same_graph_find_some s s' u n : graph_of s' = graph_of s -> find u s = Some n ->
  exists n', find u s' = Some n' /\ n_parents n' = n_parents n.
Proof.
  intros G F. pose proof (same_graph_parents s' s u G) as P. rewrite F in P.
  destruct (find u s') as [n'|]; [|discriminate]. injection P as P.
  exists n'. split; [reflexivity | exact P].
Qed.

Lemma same_graph_keys s s' : graph_of s' = graph_of s -> keys s' = keys s.
Proof. intros G. rewrite <- (keys_graph_of s), <- (keys_graph_of s'), G. reflexivity. Qed.

Lemma fresh_sound s u n : find u s = Some n -> n_indirect n = [] ->
  forall a, In a (ancestors n) -> reach (graph_of s) u a.
Proof.
  intros F Hind a Ha. unfold ancestors in Ha. rewrite Hind, app_nil_r in Ha.
  apply reach_parent. rewrite parents_of_find, F. exact Ha.
Qed.

Lemma add_indirect_parents n a : n_parents (add_indirect n a) = n_parents n.
Proof. unfold add_indirect. destruct (mem a (n_parents n)); reflexivity. Qed.

Lemma fold_add_indirect_parents acc : forall n, n_parents (fold_left add_indirect acc n) = n_parents n.
Proof.
  induction acc as [|a acc IH]; intros n; cbn [fold_left]; [reflexivity|].
  rewrite IH. apply add_indirect_parents.
Qed.

Lemma add_indirect_anc n a y : In y (ancestors (add_indirect n a)) <-> In y (ancestors n) \/ y = a.
Proof.
  unfold add_indirect. destruct (mem a (n_parents n)) eqn:M.
  - split; [auto|]. intros [H | ->]; [exact H | apply in_parents_ancestors, mem_In, M].
  - unfold ancestors. cbn [n_parents n_indirect]. split.
    + intros H. apply in_app_or in H as [H|H]; [left; apply in_or_app; left; exact H|].
      apply add_set_In in H as [H|H]; [right; exact H | left; apply in_or_app; right; exact H].
    + intros [H|H]; apply in_or_app.
      * apply in_app_or in H as [H|H]; [left; exact H | right; apply add_set_In; right; exact H].
      * right. apply add_set_In. left; exact H.
Qed.

Lemma fold_add_indirect_anc acc : forall n y,
  In y (ancestors (fold_left add_indirect acc n)) <-> In y (ancestors n) \/ In y acc.
Proof.
  induction acc as [|a acc IH]; intros n y; cbn [fold_left In]; [tauto|].
  rewrite IH, add_indirect_anc. split; [intros [[H|H]|H] | intros [H|[H|H]]]; auto.
Qed.

Lemma fold_remove_indirect_ind l : forall n a,
  In a (n_indirect (fold_left remove_indirect l n)) <-> In a (n_indirect n) /\ ~ In a l.
Proof.
  induction l as [|y l IH]; intros n a; cbn [fold_left In]; [tauto|].
  rewrite IH. unfold remove_indirect at 1. cbn [n_indirect]. rewrite remove_set_In.
  split.
  - intros [[A B] C]. split; [exact A|]. intros [D|D]; [exact (B (eq_sym D)) | exact (C D)].
  - intros [A B]. split; [split; [exact A|] |].
    + intros ->. apply B. left; reflexivity.
    + intros C. apply B. right; exact C.
Qed.

Definition Sound (g : graph) (s : store) : Prop :=
  forall u n, find u s = Some n -> forall a, In a (ancestors n) -> reach g u a.
Definition complete (g : graph) (s : store) (x : uid) : Prop :=
  forall n, find x s = Some n -> forall a, reach g x a -> In a (ancestors n).
Definition sound_store (g : graph) (s : store) : Prop := graph_of s = g /\ Sound g s.

Lemma find_add_indirect u acc s x m :
  find x (update u (fun m => fold_left add_indirect acc m) s) = Some m ->
  exists n, find x s = Some n /\ forall y, In y (ancestors m) <-> In y (ancestors n) \/ (x = u /\ In y acc).
Proof.
  intros F. rewrite find_update in F. destruct (find x s) as [n|]; [|discriminate].
  injection F as <-. exists n. split; [reflexivity|]. intros y. destruct (N.eqb_spec u x) as [->|Hx].
  - rewrite fold_add_indirect_anc. split; [intros [H|H]; auto | intros [H|[_ H]]; auto].
  - split; [auto | intros [H|[E _]]; [exact H | congruence]].
Qed.

Lemma complete_add_indirect g u acc s x :
  complete g s x -> complete g (update u (fun m => fold_left add_indirect acc m) s) x.
Proof.
  intros C m Fm a Hr. apply find_add_indirect in Fm as [n [F H]]. apply H. left. exact (C n F a Hr).
Qed.

Lemma sound_store_add_indirect g u acc s : sound_store g s -> (forall y, In y acc -> reach g u y) ->
  sound_store g (update u (fun m => fold_left add_indirect acc m) s).
Proof.
  intros [G HS] Hacc. split.
  - rewrite graph_of_update; [exact G | apply fold_add_indirect_parents].
  - intros x m Fx a Ha. apply find_add_indirect in Fx as [n [F H]].
    apply H in Ha as [Ha|[-> Ha]]; [exact (HS x n F a Ha) | exact (Hacc a Ha)].
Qed.

(* the ancestors gathered so far, after the out-edge a has been dealt with in store s *)
Definition collect (explored : list uid) (a : uid) (s : store) (acc : list uid) : list uid :=
  if mem a explored then acc
  else match find a s with Some an => acc ++ ancestors an | None => acc end.

(* the loop of add_ancestors over the snapshot of out-edges, with the recursive call abstracted *)
Definition loop_f (rec : uid -> store -> list uid -> option (store * list uid)) :=
  fix loop (edges : list uid) (s : store) (seen explored acc : list uid)
      : option (store * list uid * list uid) :=
    match edges with
    | [] => Some (s, seen, acc)
    | a :: rest =>
        match (if mem a seen then Some (s, seen) else rec a s (a :: seen)) with
        | None => None
        | Some (s', seen') =>
            if mem a explored then loop rest s' seen' explored acc
            else loop rest s' seen' (a :: explored)
                   (match find a s' with Some an => acc ++ ancestors an | None => acc end)
        end
    end.

Lemma add_anc_S f u s seen :
  add_anc (Datatypes.S f) u s seen =
  match find u s with
  | None => Some (s, seen)
  | Some n =>
      match loop_f (add_anc f) (ancestors n) s seen [] [] with
      | None => None
      | Some (s', seen', acc) => Some (update u (fun m => fold_left add_indirect acc m) s', seen')
      end
  end.
Proof. reflexivity. Qed.

Lemma loop_f_cons rec a rest s seen explored acc :
  loop_f rec (a :: rest) s seen explored acc =
  match (if mem a seen then Some (s, seen) else rec a s (a :: seen)) with
  | None => None
  | Some (s', seen') =>
      loop_f rec rest s' seen' (if mem a explored then explored else a :: explored) (collect explored a s' acc)
  end.
Proof.
  cbn [loop_f]. destruct (if mem a seen then _ else _) as [[s' seen']|]; [|reflexivity].
  unfold collect. destruct (mem a explored); reflexivity.
Qed.

Lemma collect_incl explored a s acc : incl acc (collect explored a s acc).
Proof.
  unfold collect. destruct (mem a explored); [apply incl_refl|].
  destruct (find a s); [apply incl_appl|]; apply incl_refl.
Qed.

Lemma collect_sound explored a s acc y : In y (collect explored a s acc) ->
  In y acc \/ exists an, find a s = Some an /\ In y (ancestors an).
Proof.
  unfold collect. destruct (mem a explored); [auto|].
  destruct (find a s) as [an|]; [|auto]. intros H. apply in_app_or in H as [H|H]; [auto|].
  right. exists an. auto.
Qed.

Lemma collect_covers g explored a s acc :
  graph_of s = g -> complete g s a ->
  (forall b, In b explored -> forall y, reach g b y -> In y acc) ->
  forall b, In b (a :: explored) -> forall y, reach g b y -> In y (collect explored a s acc).
Proof.
  intros G C Hexp b Hb y Hy. unfold collect. destruct (mem a explored) eqn:ME.
  - apply mem_In in ME. destruct Hb as [<-|Hb]; [exact (Hexp a ME y Hy) | exact (Hexp b Hb y Hy)].
  - destruct Hb as [<-|Hb].
    + destruct (find a s) as [an|] eqn:Fa; [apply in_or_app; right; exact (C an Fa y Hy)|].
      exfalso. rewrite <- G in Hy. exact (absent_no_reach s a y Fa Hy).
    + pose proof (Hexp b Hb y Hy). destruct (find a s); [apply in_or_app; left|]; assumption.
Qed.

(* the top-level loop of compute_tc_internal over the nodes to fix *)
Definition visit_all (fuel : nat) (T : list uid) (st : option (store * list uid)) :=
  fold_left (fun acc t => match acc with
                          | None => None
                          | Some (s, seen) => add_anc fuel t s seen
                          end) T st.

Lemma visit_all_none fuel T : visit_all fuel T None = None.
Proof. induction T as [|t T IH]; [reflexivity | exact IH]. Qed.

(* Soundness of repair, on ANY graph (cyclic included): whatever the DFS adds is justified by a path. *)
Lemma loop_sound g rec u :
  (forall a s seen s' seen', rec a s seen = Some (s', seen') -> sound_store g s -> sound_store g s') ->
  forall edges s seen explored acc s' seen' acc',
    loop_f rec edges s seen explored acc = Some (s', seen', acc') ->
    sound_store g s -> (forall a, In a edges -> reach g u a) -> (forall y, In y acc -> reach g u y) ->
    sound_store g s' /\ (forall y, In y acc' -> reach g u y).
Proof.
  intros HR. induction edges as [|a rest IH]; intros s seen explored acc s' seen' acc' H HSt Hed Hacc.
  - injection H as <- <- <-. split; assumption.
  - rewrite loop_f_cons in H.
    destruct (if mem a seen then _ else _) as [[s1 seen1]|] eqn:E; [|discriminate].
    assert (HSt1 : sound_store g s1).
    { destruct (mem a seen); [injection E as <- <-; exact HSt | eapply HR; eassumption]. }
    apply (IH _ _ _ _ _ _ _ H HSt1); [intros b Hb; apply Hed; right; exact Hb|].
    intros y Hy. apply collect_sound in Hy as [Hy | [an [Fa Hy]]]; [exact (Hacc y Hy)|].
    eapply reach_trans; [apply Hed; left; reflexivity | exact (proj2 HSt1 a an Fa y Hy)].
Qed.

Lemma add_anc_sound g : forall fuel u s seen s' seen',
  add_anc fuel u s seen = Some (s', seen') -> sound_store g s -> sound_store g s'.
Proof.
  induction fuel as [|f IH]; intros u s seen s' seen' H HSt; [discriminate|].
  rewrite add_anc_S in H. destruct (find u s) as [n|] eqn:F; [|injection H as <- <-; exact HSt].
  destruct (loop_f (add_anc f) (ancestors n) s seen [] []) as [[[s1 seen1] acc1]|] eqn:EL; [|discriminate].
  injection H as <- <-.
  destruct (loop_sound g (add_anc f) u IH _ _ _ _ _ _ _ _ EL HSt) as [HSt1 Hacc1].
  - exact (proj2 HSt u n F).
  - intros y [].
  - apply sound_store_add_indirect; assumption.
Qed.

Lemma visit_all_sound g fuel : forall T s seen s' seen',
  visit_all fuel T (Some (s, seen)) = Some (s', seen') -> sound_store g s -> sound_store g s'.
Proof.
  induction T as [|t T IH]; intros s seen s' seen' H HSt; cbn [visit_all fold_left] in H.
  - injection H as <- <-. exact HSt.
  - destruct (add_anc fuel t s seen) as [[s1 seen1]|] eqn:E.
    + exact (IH _ _ _ _ H (add_anc_sound g _ _ _ _ _ _ E HSt)).
    + fold (visit_all fuel T None) in H. rewrite visit_all_none in H. discriminate.
Qed.

Lemma repair_sound s T :
  Sound (graph_of s) s ->
  match repair T s with
  | TOk s' => graph_of s' = graph_of s /\ Sound (graph_of s) s'
  | TErr ECycle => exists t, In t (keys s) /\ reach (graph_of s) t t
  | TErr _ => True
  end.
Proof.
  intros HS. unfold repair.
  pose proof (visit_all_sound (graph_of s) (Datatypes.S (Datatypes.S (length (all_uids s)))) T s
                (filter (fun k => negb (mem k T)) (keys s))) as HF.
  unfold visit_all in HF. destruct (fold_left _ T _) as [[s' seen']|]; [|exact I].
  destruct (HF s' seen' eq_refl (conj eq_refl HS)) as [G' HS'].
  destruct (enforce_dag_for T s') eqn:D; [split; assumption|].
  apply forallb_false_ex in D as [t [_ Ht]].
  destruct (find t s') as [n|] eqn:Ft; [|discriminate].
  apply negb_false_iff, is_desc_In in Ht. exists t. split; [|exact (HS' t n Ft t Ht)].
  rewrite <- (same_graph_keys s s' G'). exact (find_some_key s' t n Ft).
Qed.

(* Completeness of repair on an acyclic graph.  The measure: uids that can still be inserted into `seen`. *)
Definition cnt (g : graph) (seen : list uid) : nat :=
  length (filter (fun x => negb (mem x seen)) (flat_map snd g)).

Lemma filter_length_le {A} (f h : A -> bool) l :
  (forall x, f x = true -> h x = true) -> (length (filter f l) <= length (filter h l))%nat.
Proof.
  intros Hfh. induction l as [|x l IH]; cbn [filter length]; [lia|].
  destruct (f x) eqn:Fx.
  - rewrite (Hfh x Fx). cbn [length]. lia.
  - destruct (h x); cbn [length]; lia.
Qed.

Lemma filter_length_lt {A} (f h : A -> bool) l a :
  (forall x, f x = true -> h x = true) -> In a l -> f a = false -> h a = true ->
  (length (filter f l) < length (filter h l))%nat.
Proof.
  intros Hfh Hin Fa Ha. induction l as [|x l IH]; [destruct Hin|].
  cbn [filter]. destruct Hin as [-> | Hin].
  - rewrite Fa, Ha. cbn [length]. pose proof (filter_length_le f h l Hfh). lia.
  - specialize (IH Hin). destruct (f x) eqn:Fx.
    + rewrite (Hfh x Fx). cbn [length]. lia.
    + destruct (h x); cbn [length]; lia.
Qed.

Lemma unseen_antitone seen seen' x : incl seen seen' -> negb (mem x seen') = true -> negb (mem x seen) = true.
Proof.
  intros I H. apply negb_true_iff, mem_false. apply negb_true_iff, mem_false in H.
  intros Hx. exact (H (I x Hx)).
Qed.

Lemma cnt_antitone g seen seen' : incl seen seen' -> (cnt g seen' <= cnt g seen)%nat.
Proof. intros I. apply filter_length_le. intros x. apply unseen_antitone; exact I. Qed.

Lemma cnt_strict g seen a : In a (flat_map snd g) -> ~ In a seen -> (cnt g (a :: seen) < cnt g seen)%nat.
Proof.
  intros Ha Hn. apply filter_length_lt with (a := a).
  - intros x. apply unseen_antitone. apply incl_tl, incl_refl.
  - exact Ha.
  - apply negb_false_iff, mem_In. left; reflexivity.
  - apply negb_true_iff, mem_false. exact Hn.
Qed.

Lemma cnt_le g seen : (cnt g seen <= length (flat_map snd g))%nat.
Proof.
  unfold cnt. induction (flat_map snd g) as [|x l IH]; cbn [filter length]; [lia|].
  destruct (negb (mem x seen)); cbn [length]; lia.
Qed.

Section DFS.
Variable g : graph.
Hypothesis acy : acyclic g.

(* A visit of u may assume of every node already seen that it is finished (complete), or is u itself,
   or is still on the stack, hence below u.  An out-edge of u that is seen can only be of the first
   kind, the graph being acyclic.  What any piece of the traversal leaves behind (Ext): what was
   complete stays so, and whatever it adds to `seen` is complete. *)
Definition Pre (u : uid) (s : store) (seen : list uid) : Prop :=
  forall x, In x seen -> x = u \/ complete g s x \/ reach g x u.
Definition Ext (s : store) (seen : list uid) (s' : store) (seen' : list uid) : Prop :=
  sound_store g s' /\ (forall x, complete g s x -> complete g s' x) /\ incl seen seen'
  /\ (forall x, In x seen' -> In x seen \/ complete g s' x).
Definition RecSpec (rec : uid -> store -> list uid -> option (store * list uid)) (k : nat) : Prop :=
  forall a s seen, sound_store g s -> Pre a s seen -> (cnt g seen < k)%nat ->
    exists s' seen', rec a s seen = Some (s', seen') /\ Ext s seen s' seen' /\ complete g s' a.

Lemma Ext_same_seen s seen s' : sound_store g s' -> (forall x, complete g s x -> complete g s' x) -> Ext s seen s' seen.
Proof.
  intros HSt P. split; [exact HSt|]. split; [exact P|]. split.
  - apply incl_refl.
  - intros x Hx. left; exact Hx.
Qed.

Lemma Ext_refl s seen : sound_store g s -> Ext s seen s seen.
Proof. intros HSt. exact (Ext_same_seen s seen s HSt (fun x C => C)). Qed.

Lemma Ext_trans s0 seen0 s1 seen1 s2 seen2 :
  Ext s0 seen0 s1 seen1 -> Ext s1 seen1 s2 seen2 -> Ext s0 seen0 s2 seen2.
Proof.
  intros (St1 & P1 & I1 & N1) (St2 & P2 & I2 & N2).
  split; [exact St2|]. split; [|split].
  - intros x C. exact (P2 x (P1 x C)).
  - eapply incl_tran; eassumption.
  - intros x Hx. destruct (N2 x Hx) as [H|H]; [|right; exact H].
    destruct (N1 x H) as [H1|H1]; [left; exact H1 | right; exact (P2 x H1)].
Qed.

Lemma Ext_complete s seen s' seen' : Ext s seen s' seen' -> forall x, complete g s x -> complete g s' x.
Proof. intros X. apply X. Qed.

Lemma Pre_ext u s seen s' seen' : Pre u s seen -> Ext s seen s' seen' -> Pre u s' seen'.
Proof.
  intros HPre X x Hx. destruct (proj2 (proj2 (proj2 X)) x Hx) as [H|H]; [|right; left; exact H].
  destruct (HPre x H) as [-> | [C | R]]; [left; reflexivity | | right; right; exact R].
  right; left. exact (Ext_complete _ _ _ _ X x C).
Qed.

Lemma visit_spec rec k u a s seen : RecSpec rec k ->
  sound_store g s -> Pre u s seen -> (cnt g seen <= k)%nat -> reach g u a ->
  exists s1 seen1,
    (if mem a seen then Some (s, seen) else rec a s (a :: seen)) = Some (s1, seen1)
    /\ Ext s seen s1 seen1 /\ complete g s1 a.
Proof.
  intros HR HSt HPre Hk Hua. destruct (mem a seen) eqn:M.
  - exists s, seen. split; [reflexivity|]. split; [exact (Ext_refl s seen HSt)|].
    apply mem_In in M. destruct (HPre a M) as [E | [C | R]].
    + subst a. exfalso. exact (acy u Hua).
    + exact C.
    + exfalso. exact (acy a (reach_trans g a u a R Hua)).
  - apply mem_false in M.
    destruct (HR a s (a :: seen) HSt) as (s1 & seen1 & E & (St1 & P1 & I1 & N1) & C1).
    + intros x [<- | Hx]; [left; reflexivity|]. right.
      destruct (HPre x Hx) as [-> | [C | R]]; [right; exact Hua | left; exact C |].
      right. eapply reach_trans; eassumption.
    + exact (Nat.lt_le_trans _ _ _ (cnt_strict g seen a (reach_in_parents g u a Hua) M) Hk).
    + exists s1, seen1. split; [exact E|]. split; [|exact C1].
      split; [exact St1|]. split; [exact P1|]. split.
      * intros x Hx. apply I1. right; exact Hx.
      * intros x Hx. destruct (N1 x Hx) as [[<- | H]|H]; [right; exact C1 | left; exact H | right; exact H].
Qed.

Lemma loop_spec rec k u : RecSpec rec k ->
  forall edges s seen explored acc,
    sound_store g s -> Pre u s seen -> (cnt g seen <= k)%nat ->
    (forall a, In a edges -> reach g u a) ->
    (forall a, In a explored -> forall y, reach g a y -> In y acc) ->
    exists s' seen' acc',
      loop_f rec edges s seen explored acc = Some (s', seen', acc')
      /\ Ext s seen s' seen' /\ incl acc acc'
      /\ (forall a, In a edges -> forall y, reach g a y -> In y acc').
Proof.
  intros HR. induction edges as [|a rest IH]; intros s seen explored acc HSt HPre Hk Hedges Hexp.
  - exists s, seen, acc. split; [reflexivity|]. split; [exact (Ext_refl s seen HSt)|].
    split; [apply incl_refl | intros a []].
  - destruct (visit_spec rec k u a s seen HR HSt HPre Hk (Hedges a (or_introl eq_refl)))
      as (s1 & seen1 & E & X1 & C1).
    pose proof (collect_covers g explored a s1 acc (proj1 (proj1 X1)) C1 Hexp) as Hcov.
    destruct (IH s1 seen1 (if mem a explored then explored else a :: explored) (collect explored a s1 acc))
      as (s' & seen' & acc' & EL & X' & Hinc' & Hed').
    + exact (proj1 X1).
    + exact (Pre_ext u s seen s1 seen1 HPre X1).
    + exact (Nat.le_trans _ _ _ (cnt_antitone g seen seen1 (proj1 (proj2 (proj2 X1)))) Hk).
    + intros b Hb. apply Hedges. right; exact Hb.
    + intros b Hb. apply Hcov. destruct (mem a explored); [right|]; exact Hb.
    + exists s', seen', acc'. rewrite loop_f_cons, E. split; [exact EL|].
      split; [exact (Ext_trans _ _ _ _ _ _ X1 X')|].
      split; [exact (incl_tran (collect_incl explored a s1 acc) Hinc')|].
      intros b [<- | Hb] y Hy; [|exact (Hed' b Hb y Hy)].
      apply Hinc'. exact (Hcov a (or_introl eq_refl) y Hy).
Qed.

Lemma add_anc_spec : forall fuel, RecSpec (add_anc fuel) fuel.
Proof.
  induction fuel as [|f IH]; intros u s seen HSt HPre Hk; [inversion Hk|].
  destruct (find u s) as [n|] eqn:F.
  - destruct (loop_spec (add_anc f) f u IH (ancestors n) s seen [] [] HSt HPre (proj1 (Nat.lt_succ_r _ _) Hk))
      as (s' & seen' & acc' & EL & X' & _ & Hed').
    + exact (proj2 HSt u n F).
    + intros a [].
    + set (s'' := update u (fun m => fold_left add_indirect acc' m) s').
      assert (E : add_anc (Datatypes.S f) u s seen = Some (s'', seen')) by (rewrite add_anc_S, F, EL; reflexivity).
      exists s'', seen'. split; [exact E|]. split.
      * apply (Ext_trans _ _ _ _ _ _ X'). apply Ext_same_seen; [|intros x; apply complete_add_indirect].
        exact (add_anc_sound g _ _ _ _ _ _ E HSt).
      * (* u lists what its parents reach: the first step of a path from u is an out-edge *)
        destruct (same_graph_find_some s s' u n (eq_trans (proj1 (proj1 X')) (eq_sym (proj1 HSt))) F)
          as [n' [F' P']].
        intros m Fm y Hy. unfold s'' in Fm. rewrite find_update_same, F' in Fm. injection Fm as <-.
        apply fold_add_indirect_anc.
        assert (P : parents_of g u = n_parents n) by (rewrite <- (proj1 HSt), parents_of_find, F; reflexivity).
        destruct (reach_inv_first g u y Hy) as [H | [p [Hp Hpy]]]; rewrite P in *.
        -- left. apply in_parents_ancestors. rewrite P'. exact H.
        -- right. exact (Hed' p (in_parents_ancestors n p Hp) y Hpy).
  - exists s, seen. split; [rewrite add_anc_S, F; reflexivity|].
    split; [exact (Ext_refl s seen HSt) | intros n Fn; congruence].
Qed.

Lemma visit_all_spec fuel : forall T s seen,
  sound_store g s -> (forall x, In x seen -> complete g s x) -> (length (flat_map snd g) < fuel)%nat ->
  exists s' seen',
    visit_all fuel T (Some (s, seen)) = Some (s', seen')
    /\ Ext s seen s' seen' /\ (forall t, In t T -> complete g s' t).
Proof.
  induction T as [|t T IH]; intros s seen HSt HC Hf.
  - exists s, seen. split; [reflexivity|]. split; [exact (Ext_refl s seen HSt) | intros t []].
  - destruct (add_anc_spec fuel t s seen HSt) as (s1 & seen1 & E & X1 & C1).
    + intros x Hx. right; left. exact (HC x Hx).
    + exact (Nat.le_lt_trans _ _ _ (cnt_le g seen) Hf).
    + destruct (IH s1 seen1 (proj1 X1)) as (s' & seen' & EF & X' & HT').
      * intros x Hx. destruct (proj2 (proj2 (proj2 X1)) x Hx) as [H|H]; [|exact H].
        exact (Ext_complete _ _ _ _ X1 x (HC x H)).
      * exact Hf.
      * exists s', seen'. split; [cbn [visit_all fold_left]; rewrite E; exact EF|].
        split; [exact (Ext_trans _ _ _ _ _ _ X1 X')|].
        intros x [<- | Hx]; [exact (Ext_complete _ _ _ _ X' t C1) | exact (HT' x Hx)].
Qed.
End DFS.

Lemma length_parents_le_all_uids s : (length (flat_map snd (graph_of s)) <= length (all_uids s))%nat.
Proof.
  unfold all_uids. rewrite app_length. apply Nat.le_trans with (2 := Nat.le_add_l _ _).
  unfold graph_of. induction s as [|[k n] s IH]; cbn [map flat_map fst snd]; [apply Nat.le_refl|].
  unfold ancestors at 1. rewrite !app_length. lia.
Qed.

Lemma repair_correct s T :
  Sound (graph_of s) s ->
  (forall x, In x (keys s) -> ~ In x T -> complete (graph_of s) s x) ->
  acyclic (graph_of s) ->
  exists s', repair T s = TOk s' /\ graph_of s' = graph_of s
             /\ forall u n, find u s' = Some n -> forall a, In a (ancestors n) <-> reach (graph_of s) u a.
Proof.
  intros HS HU Hacy. unfold repair.
  set (fuel := Datatypes.S (Datatypes.S (length (all_uids s)))).
  set (seen0 := filter (fun k => negb (mem k T)) (keys s)).
  assert (HC0 : forall x, In x seen0 -> complete (graph_of s) s x).
  { intros x Hx. apply filter_In in Hx as [Hk Hm]. apply negb_true_iff, mem_false in Hm. exact (HU x Hk Hm). }
  destruct (visit_all_spec (graph_of s) Hacy fuel T s seen0 (conj eq_refl HS) HC0)
    as (s' & seen' & EF & ([G' HS'] & P' & I' & N') & HT').
  { apply Nat.lt_succ_r, Nat.le_le_succ_r, length_parents_le_all_uids. }
  unfold visit_all in EF. rewrite EF.
  assert (Hall : forall u n, find u s' = Some n -> forall a, In a (ancestors n) <-> reach (graph_of s) u a).
  { intros u n F a. split; [exact (HS' u n F a)|]. apply (fun C : complete (graph_of s) s' u => C n F a).
    destruct (mem u T) eqn:M; [apply HT', mem_In, M|].
    assert (Hu : In u seen').
    { apply I', filter_In. rewrite M. split; [|reflexivity].
      rewrite <- (same_graph_keys s s' G'). exact (find_some_key s' u n F). }
    destruct (N' u Hu) as [H|H]; [exact (P' u (HC0 u H)) | exact H]. }
  assert (D : enforce_dag_for T s' = true).
  { apply forallb_forall. intros t Ht. destruct (find t s') as [n|] eqn:F; [|reflexivity].
    apply negb_true_iff. destruct (is_desc n t) eqn:E; [|reflexivity].
    exfalso. apply is_desc_In in E. exact (Hacy t (proj1 (Hall t n F t) E)). }
  rewrite D. exists s'. split; [reflexivity|]. split; [exact G' | exact Hall].
Qed.

Lemma Inv_Sound s : Inv s -> Sound (graph_of s) s.
Proof. intros HI u n F a. apply Inv_ancestors; assumption. Qed.

Lemma Inv_complete s x : Inv s -> complete (graph_of s) s x.
Proof. intros HI n F a. apply Inv_ancestors; assumption. Qed.

Lemma Inv_acyclic s : Inv s -> acyclic (graph_of s).
Proof.
  intros HI x Hr. destruct (find x s) as [n|] eqn:F; [|exact (absent_no_reach s x x F Hr)].
  apply (Inv_ancestors s x n HI F) in Hr. destruct HI as [_ HIn].
  exact (proj1 (proj2 (HIn x n (find_some_in s x n F))) Hr).
Qed.

Definition agree (si ss : store) : Prop :=
  graph_of si = graph_of ss /\
  forall u ni ns, find u si = Some ni -> find u ss = Some ns -> forall a, In a (ancestors ni) <-> In a (ancestors ns).

(* The refinement, given the facts of the edit phase.  sp: the store edited by the spec layer; s1, T: what
   the edit phase of the incremental layer hands to repair; si, ss: what the incremental and the spec layer
   return. *)
Lemma refines s o sp s1 T :
  NoDup (keys s) -> s_edit s o = TOk sp -> graph_of sp = graph_of s1 ->
  Sound (graph_of s1) s1 ->
  (forall x, ~ In x T -> complete (graph_of s1) s1 x) ->
  (acyclic (graph_of s1) ->
   exists si ss, repair T s1 = TOk si /\ s_compute s o = TOk ss /\ agree si ss)
  /\ (repair T s1 = TErr ECycle -> s_compute s o = TErr ECycle).
Proof.
  intros ND E G HS HU. split.
  - intros Hacy. destruct (repair_correct s1 T HS (fun x _ => HU x) Hacy) as [si [ER [Gi Hi]]].
    unfold s_compute. rewrite E. destruct (recompute (graph_of sp)) as [ss|e] eqn:ES.
    + exists si, ss. split; [exact ER|]. split; [reflexivity|].
      apply recompute_inv in ES; [|rewrite keys_graph_of; exact (s_edit_keys s o sp ND E)].
      destruct ES as [HIs Gs]. split; [congruence|]. intros u ni ns Fi Fs a.
      rewrite (Hi u ni Fi a), (Inv_ancestors ss u ns HIs Fs a), Gs, G. reflexivity.
    + exfalso. destruct (recompute_reject (graph_of sp)) as [Hc Hcyc]. pose proof (Hc e ES) as ->.
      apply Hcyc in ES as [u [_ Hr]]. rewrite G in Hr. exact (Hacy u Hr).
  - intros H. pose proof (repair_sound s1 T HS) as RS. rewrite H in RS. destruct RS as [x [Hk Hr]].
    apply (spec_op_cycle_rejected s o sp x E); [|rewrite G; exact Hr].
    rewrite (same_graph_keys s1 sp G). exact Hk.
Qed.

Lemma insert_all_shape : forall es s s1, insert_all s es = TOk s1 ->
  exists news, s1 = s ++ news /\ forall k n, In (k, n) news -> In k (map fst es) /\ n_indirect n = [].
Proof.
  induction es as [|e es IH]; intros s s1 H; cbn [insert_all] in H.
  - injection H as <-. exists []. split; [symmetry; apply app_nil_r | intros k n []].
  - destruct (upd_noover s e) as [s2|x] eqn:U; [|discriminate].
    destruct (IH s2 s1 H) as [news [-> Hn]].
    assert (Hn' : forall k n, In (k, n) news -> In k (map fst (e :: es)) /\ n_indirect n = []).
    { intros k n Hk. destruct (Hn k n Hk) as [A B]. split; [right; exact A | exact B]. }
    apply upd_noover_ok in U as [-> | [_ ->]].
    + exists news. split; [reflexivity | exact Hn'].
    + exists ((fst e, mkNode (snd e) []) :: news). split; [exact (eq_sym (app_assoc s [_] news))|].
      intros k n [Hk|Hk]; [|exact (Hn' k n Hk)].
      injection Hk as <- <-. split; [left; reflexivity | reflexivity].
Qed.

(* The touched sets are folds that add the key of an entry when a condition holds, which may depend on what
   is touched so far.  Such a fold only grows, and an entry whose condition holds from some point on gets in. *)
Lemma fold_add_grows (c : list uid -> uid * node -> bool) x : forall l tch, In x tch ->
  In x (fold_left (fun tch kn => if c tch kn then add_set (fst kn) tch else tch) l tch).
Proof.
  induction l as [|kn l IH]; intros tch H; cbn [fold_left]; [exact H|].
  apply IH. destruct (c tch kn); [apply add_set_In; right|]; exact H.
Qed.

Lemma fold_add_hit (c : list uid -> uid * node -> bool) kn : forall l tch, In kn l ->
  (forall tch', incl tch tch' -> c tch' kn = true) ->
  In (fst kn) (fold_left (fun tch kn => if c tch kn then add_set (fst kn) tch else tch) l tch).
Proof.
  induction l as [|k l IH]; intros tch Hin Hc; [destruct Hin|]. cbn [fold_left]. destruct Hin as [<-|Hin].
  - apply fold_add_grows. rewrite (Hc tch (incl_refl tch)). apply add_set_In. left; reflexivity.
  - apply IH; [exact Hin|]. intros tch' I. apply Hc. intros y Hy. apply I.
    destruct (c tch k); [apply add_set_In; right|]; exact Hy.
Qed.

Lemma touch_descendants_incl s T x : In x T -> In x (touch_descendants T s).
Proof. apply (fold_add_grows (fun tch kn => existsb (fun a => mem a tch) (ancestors (snd kn)))). Qed.

Lemma touch_descendants_desc s T u n a : In (u, n) s -> In a (ancestors n) -> In a T -> In u (touch_descendants T s).
Proof.
  intros Hin Ha HT.
  apply (fold_add_hit (fun tch kn => existsb (fun a => mem a tch) (ancestors (snd kn))) (u, n) s T Hin).
  intros tch' I. apply existsb_exists. exists a. split; [exact Ha | apply mem_In, I, HT].
Qed.

Lemma add_edit_sound s es s1 : Inv s -> insert_all s es = TOk s1 -> Sound (graph_of s1) s1.
Proof.
  intros HI E. destruct (insert_all_shape es s s1 E) as [news [-> Hnews]].
  intros u n F a Ha. pose proof F as F1. rewrite find_app in F. destruct (find u s) as [n0|] eqn:F0.
  - injection F as ->. apply (reach_mono (graph_of s)); [|exact (Inv_Sound s HI u n F0 a Ha)].
    intros b p. rewrite !parents_of_find, find_app. destruct (find b s); [auto | intros []].
  - apply find_some_in in F. exact (fresh_sound _ u n F1 (proj2 (Hnews u n F)) a Ha).
Qed.

(* an entity the second pass leaves untouched is an old one that reaches no added uid: its paths are old *)
Lemma add_untouched_reach s es s1 t x n a :
  Inv s -> insert_all s es = TOk s1 -> (forall k, In k (map fst es) -> In k t) ->
  ~ In x (touch_descendants t s1) -> find x s1 = Some n -> reach (graph_of s1) x a ->
  find x s = Some n /\ reach (graph_of s) x a.
Proof.
  intros HI E Ht HnT F1 Hr. destruct (insert_all_shape es s s1 E) as [news [-> Hnews]].
  assert (Hold : forall b, ~ In b (map fst es) -> find b (s ++ news) = find b s).
  { intros b Hb. rewrite find_app. destruct (find b s); [reflexivity|]. apply find_none.
    intros Hk. apply in_map_iff in Hk as [[k m] [<- Hk]]. exact (Hb (proj1 (Hnews k m Hk))). }
  assert (HxT : ~ In x (map fst es)) by (intros H; apply HnT, touch_descendants_incl, Ht, H).
  pose proof F1 as F. rewrite (Hold x HxT) in F. split; [exact F|].
  apply (reach_unchanged (fun b => In b (map fst es)) (graph_of s) (graph_of (s ++ news)) x);
    [| exact HxT | | exact Hr].
  - intros b p Hb. rewrite !parents_of_find, (Hold b Hb). auto.
  - intros b Hb HbT. apply HnT. apply (touch_descendants_desc (s ++ news) t x n b).
    + apply find_some_in; exact F1.
    + exact (Inv_complete s x HI n F b Hb).
    + exact (Ht b HbT).
Qed.

Lemma inc_refines_add s es s1 :
  Inv s -> insert_all s es = TOk s1 ->
  (acyclic (graph_of s1) ->
   exists si ss, i_add true s es = TOk si /\ s_compute s (OAdd true es) = TOk ss /\ agree si ss)
  /\ (i_add true s es = TErr ECycle -> s_compute s (OAdd true es) = TErr ECycle).
Proof.
  intros HI E. pose proof (i_add_loop_spec es s []) as EL. rewrite E in EL. destruct EL as [t [EL Ht]].
  unfold i_add. rewrite EL. unfold finish. apply (refines s (OAdd true es) s1).
  - apply HI.
  - exact E.
  - reflexivity.
  - exact (add_edit_sound s es s1 HI E).
  - intros x HnT n F a Hr.
    destruct (add_untouched_reach s es s1 t x n a HI E (fun k Hk => Ht k (or_intror Hk)) HnT F Hr) as [F0 R0].
    exact (Inv_complete s x HI n F0 a R0).
Qed.

Lemma inc_add_error s es e : insert_all s es = TErr e ->
  i_add true s es = TErr e /\ s_compute s (OAdd true es) = TErr e.
Proof.
  intros E. pose proof (inc_add_edit true s es) as H. unfold s_compute. cbn [s_edit]. rewrite E in *.
  split; [exact H | reflexivity].
Qed.

Lemma add_cycles_touched s es s1 t :
  Inv s -> i_add_loop s [] es = TOk (s1, t) ->
  forall x, reach (graph_of s1) x x -> In x (touch_descendants t s1).
Proof.
  intros HI EL x Hr. pose proof (i_add_loop_spec es s []) as H. rewrite EL in H.
  destruct (insert_all s es) as [s1'|] eqn:E; [|discriminate].
  destruct H as [t1 [Et Ht]]. injection Et as <- <-.
  destruct (mem x (touch_descendants t s1)) eqn:M; [apply mem_In; exact M|].
  apply mem_false in M. exfalso.
  destruct (find x s1) as [n|] eqn:F; [|exact (absent_no_reach s1 x x F Hr)].
  destruct (add_untouched_reach s es s1 t x n x HI E (fun k Hk => Ht k (or_intror Hk)) M F Hr) as [_ R0].
  exact (Inv_acyclic s HI x R0).
Qed.

(* Remove of one uid, upsert of one entity.  Both change the out-edges of one entity u only (remove also
   deletes the edges into u).  Both replace the record of every other entity that has u as an ancestor by
   one without u and without whatever u could reach (strip_node; m is what else is done to the record), and
   touch that entity.  What is left there is justified by a path avoiding u, and such a path survives the
   edit; an entity that u is no ancestor of keeps its record and its paths.  u itself is gone, or has a
   fresh record and is touched (new). *)
Definition strip_node (m : node -> node) (u : uid) (old_anc : list uid) (n : node) : node :=
  if is_desc n u then fold_left remove_indirect old_anc (m (remove_indirect n u)) else n.

Lemma strip_node_id m u old_anc n : is_desc n u = false -> strip_node m u old_anc n = n.
Proof. intros D. unfold strip_node. rewrite D. reflexivity. Qed.

Lemma strip_node_anc m u old_anc n a :
  (forall k, n_indirect (m k) = n_indirect k) -> is_desc n u = true ->
  In a (ancestors (strip_node m u old_anc n)) ->
  In a (n_parents (strip_node m u old_anc n)) \/ (In a (ancestors n) /\ a <> u /\ ~ In a old_anc).
Proof.
  intros Hm D. unfold strip_node. rewrite D. intros Ha.
  apply in_app_or in Ha as [Ha|Ha]; [left; exact Ha|]. right.
  apply fold_remove_indirect_ind in Ha as [Ha Hno]. rewrite Hm in Ha. apply remove_set_In in Ha as [Ha Hau].
  split; [apply in_or_app; right; exact Ha | split; assumption].
Qed.

Section Strip.
Variables (s : store) (u : uid) (old : node) (s1 : store) (m : node -> node) (T : list uid) (new : option node).
Hypothesis HI : Inv s.
Hypothesis Fu : find u s = Some old.
Hypothesis Hm : forall k, n_indirect (m k) = n_indirect k.
Hypothesis Hfind : forall x,
  find x s1 = if N.eqb x u then new else option_map (strip_node m u (ancestors old)) (find x s).
Hypothesis Hnew : match new with Some n => n_indirect n = [] /\ In u T | None => True end.
Hypothesis Htouched : forall x n, x <> u -> find x s = Some n -> is_desc n u = true -> In x T.
Hypothesis Hkeep : forall b p, b <> u -> p <> u ->
  In p (parents_of (graph_of s) b) -> In p (parents_of (graph_of s1) b).
Hypothesis Hback : forall b p, b <> u ->
  In p (parents_of (graph_of s1) b) -> In p (parents_of (graph_of s) b).

Lemma strip_sound : Sound (graph_of s1) s1.
Proof.
  intros x n1 F1 a Ha. pose proof F1 as F. rewrite Hfind in F. destruct (N.eqb_spec x u) as [->|Hx].
  { pose proof Hnew as Hn. rewrite F in Hn. exact (fresh_sound s1 u n1 F1 (proj1 Hn) a Ha). }
  destruct (find x s) as [n0|] eqn:F0; [|discriminate]. injection F as <-.
  pose proof (Inv_Sound s HI x n0 F0) as S0. destruct (is_desc n0 u) eqn:D.
  - apply (strip_node_anc m u (ancestors old) n0 a Hm D) in Ha as [Hp | (Ha & Hau & Hno)].
    + apply reach_parent. rewrite parents_of_find, F1. exact Hp.
    + apply (reach_avoid u (graph_of s)); [exact Hkeep | exact Hx | exact (S0 a Ha) | exact Hau |].
      right. intros Hr. exact (Hno (Inv_complete s u HI old Fu a Hr)).
  - rewrite (strip_node_id m u (ancestors old) n0 D) in Ha.
    assert (Hnu : ~ reach (graph_of s) x u).
    { intros Hr. apply (Inv_complete s x HI n0 F0), is_desc_In in Hr. congruence. }
    apply (reach_avoid u (graph_of s)); [exact Hkeep | exact Hx | exact (S0 a Ha) | | left; exact Hnu].
    intros ->. exact (Hnu (S0 u Ha)).
Qed.

Lemma strip_untouched x : ~ In x T -> complete (graph_of s1) s1 x.
Proof.
  intros HxT n1 F1 a Hr. rewrite Hfind in F1. destruct (N.eqb_spec x u) as [->|Hx].
  { pose proof Hnew as Hn. rewrite F1 in Hn. exfalso. exact (HxT (proj2 Hn)). }
  destruct (find x s) as [n0|] eqn:F0; [|discriminate]. injection F1 as <-.
  assert (D : is_desc n0 u = false).
  { destruct (is_desc n0 u) eqn:D; [|reflexivity]. exfalso. exact (HxT (Htouched x n0 Hx F0 D)). }
  rewrite (strip_node_id m u (ancestors old) n0 D).
  pose proof (Inv_complete s x HI n0 F0) as C0. apply C0.
  apply (reach_unchanged (fun b => b = u) (graph_of s) (graph_of s1) x); [exact Hback | exact Hx | | exact Hr].
  intros b Hb ->. apply C0, is_desc_In in Hb. congruence.
Qed.
End Strip.

Lemma parents_of_edit_remove s u x : find u s <> None ->
  parents_of (graph_of (edit_remove s u)) x
  = if N.eqb x u then [] else remove_set u (parents_of (graph_of s) x).
Proof.
  intros F. rewrite !parents_of_find. unfold edit_remove. destruct (find u s); [|congruence].
  rewrite find_map_keep by reflexivity. rewrite find_delete.
  destruct (N.eqb x u); [reflexivity|]. destruct (find x s); reflexivity.
Qed.

Section RemoveOne.
Variables (s : store) (u : uid) (rem : node).
Hypothesis HI : Inv s.
Hypothesis Fu : find u s = Some rem.

Let s1 : store := fst (i_remove_one (s, []) u).
Let T : list uid := snd (i_remove_one (s, []) u).
Let tr := strip_node (fun k => remove_parent k u) u (ancestors rem).

Lemma rm1_spec_graph : graph_of (edit_remove s u) = graph_of s1.
Proof. apply remove_step_same_graph. reflexivity. Qed.

Lemma rm1_parents x :
  parents_of (graph_of s1) x = if N.eqb x u then [] else remove_set u (parents_of (graph_of s) x).
Proof. rewrite <- rm1_spec_graph. apply parents_of_edit_remove. congruence. Qed.

Lemma rm1_back b p : In p (parents_of (graph_of s1) b) -> In p (parents_of (graph_of s) b).
Proof.
  rewrite rm1_parents. destruct (N.eqb b u); [intros [] | intros Hp; apply remove_set_In in Hp; apply Hp].
Qed.

Lemma rm1_keep b p : b <> u -> p <> u ->
  In p (parents_of (graph_of s) b) -> In p (parents_of (graph_of s1) b).
Proof.
  intros Hb Hp Hin. apply N.eqb_neq in Hb. rewrite rm1_parents, Hb. apply remove_set_In. split; assumption.
Qed.

Lemma rm1_find x : find x s1 = if N.eqb x u then None else option_map tr (find x s).
Proof.
  unfold s1, i_remove_one. rewrite Fu. cbn [fst].
  rewrite find_map_keep by (intros [k n]; cbn [fst snd]; destruct (is_desc n u); reflexivity).
  rewrite find_delete. destruct (N.eqb x u); [reflexivity|].
  destruct (find x s) as [n|]; [|reflexivity]. cbn [option_map fst snd]. unfold tr, strip_node.
  destruct (is_desc n u); reflexivity.
Qed.

Lemma rm1_touched x n : x <> u -> find x s = Some n -> is_desc n u = true -> In x T.
Proof.
  intros Hx F D. unfold T, i_remove_one. rewrite Fu. cbn [snd].
  apply (fold_add_hit (fun _ kn => is_desc (snd kn) u) (x, n)); [|intros _ _; exact D].
  apply filter_In. split; [apply find_some_in; exact F|].
  cbn [fst]. apply not_eq_sym, N.eqb_neq in Hx. rewrite Hx. reflexivity.
Qed.

Lemma rm1_refines :
  exists si ss, i_remove true s [u] = TOk si /\ s_compute s (ORemove true [u]) = TOk ss /\ agree si ss.
Proof.
  unfold i_remove. cbn [fold_left].
  rewrite (surjective_pairing (i_remove_one (s, []) u)). fold s1. fold T. unfold finish.
  apply (refines s (ORemove true [u]) (edit_remove s u)).
  - apply HI.
  - reflexivity.
  - exact rm1_spec_graph.
  - apply strip_sound with (s := s) (u := u) (old := rem) (m := fun k => remove_parent k u) (T := T) (new := None).
    + exact HI.
    + exact Fu.
    + reflexivity.
    + exact rm1_find.
    + exact I.
    + exact rm1_keep.
  - apply strip_untouched with (s := s) (u := u) (old := rem) (m := fun k => remove_parent k u) (new := None).
    + exact HI.
    + exact rm1_find.
    + exact I.
    + exact rm1_touched.
    + intros b p _. exact (rm1_back b p).
  - intros x Hr. exact (Inv_acyclic s HI x (reach_mono _ _ x x rm1_back Hr)).
Qed.
End RemoveOne.

Lemma inc_refines_remove_one s u :
  Inv s ->
  exists si ss, i_remove true s [u] = TOk si /\ s_compute s (ORemove true [u]) = TOk ss /\ agree si ss.
Proof.
  intros HI. destruct (find u s) as [rem|] eqn:Fu; [exact (rm1_refines s u rem HI Fu)|].
  unfold i_remove. cbn [fold_left]. unfold i_remove_one. rewrite Fu. unfold finish.
  apply (refines s (ORemove true [u]) s).
  - apply HI.
  - cbn [s_edit fold_left]. unfold edit_remove. rewrite Fu. reflexivity.
  - reflexivity.
  - apply Inv_Sound; exact HI.
  - intros x _. apply Inv_complete; exact HI.
  - apply Inv_acyclic; exact HI.
Qed.

Lemma parents_of_upd_over s e x :
  parents_of (graph_of (upd_over s e)) x = if N.eqb x (fst e) then snd e else parents_of (graph_of s) x.
Proof.
  rewrite !parents_of_find. destruct (N.eqb_spec x (fst e)) as [->|Hx].
  - rewrite find_upd_over_same. reflexivity.
  - rewrite find_upd_over_other by exact Hx. reflexivity.
Qed.

Section UpsertOne.
Variables (s : store) (u : uid) (ps : list uid) (old : node).
Hypothesis HI : Inv s.
Hypothesis Fu : find u s = Some old.

Let e : ent := (u, ps).
Let s1 : store := fst (i_upsert_one (s, []) e).
Let T : list uid := snd (i_upsert_one (s, []) e).
Let tr := strip_node (fun k => k) u (ancestors old).

Lemma up1_spec_graph : graph_of (upd_over s e) = graph_of s1.
Proof. apply upsert_step_same_graph. reflexivity. Qed.

Lemma up1_parents b p : b <> u ->
  In p (parents_of (graph_of s1) b) <-> In p (parents_of (graph_of s) b).
Proof.
  intros Hb. rewrite <- up1_spec_graph, parents_of_upd_over. unfold e; cbn [fst snd].
  apply N.eqb_neq in Hb. rewrite Hb. reflexivity.
Qed.

Lemma up1_u_touched : In u T.
Proof.
  unfold T, i_upsert_one. unfold e; cbn [fst snd]. rewrite Fu. apply add_set_In. left; reflexivity.
Qed.

Lemma up1_find x : find x s1 = if N.eqb x u then Some (mkNode ps []) else option_map tr (find x s).
Proof.
  unfold s1, i_upsert_one. unfold e; cbn [fst snd]. rewrite Fu. cbn [fst].
  set (h := fun kn : uid * node => if negb (N.eqb (fst kn) u) && is_desc (snd kn) u
                                   then (fst kn, strip (snd kn) u (ancestors old)) else kn).
  assert (Hh : forall kn, fst (h kn) = fst kn) by (intros kn; unfold h; destruct (_ && _); reflexivity).
  destruct (N.eqb_spec x u) as [->|Hx]; [exact (find_upd_over_same (map h s) (u, ps))|].
  transitivity (find x (map h s)); [exact (find_upd_over_other (map h s) (u, ps) x Hx)|].
  rewrite (find_map_keep h Hh). destruct (find x s) as [n|]; [|reflexivity].
  cbn [option_map]. unfold h, tr, strip_node, strip. cbn [fst snd].
  apply N.eqb_neq in Hx. rewrite Hx. cbn [negb andb]. destruct (is_desc n u); reflexivity.
Qed.

Lemma up1_touched x n : x <> u -> find x s = Some n -> is_desc n u = true -> In x T.
Proof.
  intros Hx F D. unfold T, i_upsert_one. unfold e; cbn [fst snd]. rewrite Fu. cbn [snd].
  apply add_set_In. right.
  apply (fold_add_hit (fun _ kn => negb (N.eqb (fst kn) u) && is_desc (snd kn) u) (x, n));
    [apply find_some_in; exact F|].
  intros _ _. cbn [fst snd]. rewrite D. apply N.eqb_neq in Hx. rewrite Hx. reflexivity.
Qed.

Lemma up1_refines :
  (acyclic (graph_of s1) ->
   exists si ss, i_upsert true s [e] = TOk si /\ s_compute s (OUpsert true [e]) = TOk ss /\ agree si ss)
  /\ (i_upsert true s [e] = TErr ECycle -> s_compute s (OUpsert true [e]) = TErr ECycle).
Proof.
  unfold i_upsert. cbn [fold_left latest_versions existsb].
  rewrite (surjective_pairing (i_upsert_one (s, []) e)). fold s1. fold T. unfold finish.
  apply (refines s (OUpsert true [e]) (upd_over s e)).
  - apply HI.
  - reflexivity.
  - exact up1_spec_graph.
  - apply strip_sound with (s := s) (u := u) (old := old) (m := fun k => k) (T := T) (new := Some (mkNode ps [])).
    + exact HI.
    + exact Fu.
    + reflexivity.
    + exact up1_find.
    + exact (conj eq_refl up1_u_touched).
    + intros b p Hb _. apply up1_parents; exact Hb.
  - intros x HnT.
    apply strip_untouched with (s := s) (u := u) (old := old) (m := fun k => k) (T := T) (new := Some (mkNode ps [])).
    + exact HI.
    + exact up1_find.
    + exact (conj eq_refl up1_u_touched).
    + exact up1_touched.
    + intros b p Hb. exact (proj1 (up1_parents b p Hb)).
    + intros H. exact (HnT (touch_descendants_incl s1 T x H)).
Qed.
End UpsertOne.

Lemma upsert_absent_is_add s (e : ent) : find (fst e) s = None ->
  i_upsert true s [e] = i_add true s [e]
  /\ s_compute s (OUpsert true [e]) = s_compute s (OAdd true [e])
  /\ insert_all s [e] = TOk (upd_over s e).
Proof.
  intros F. unfold i_upsert, i_add, s_compute. cbn [fold_left s_edit i_add_loop insert_all latest_versions existsb].
  unfold i_upsert_one, upd_noover, upd_over. rewrite !F. split; [|split]; reflexivity.
Qed.
