(* C03 non-vacuity: the judgement `Simple` (declared, correctly typed accesses, optional attributes guarded by
   `e has a && ..` or `if e has a then .. else ..`) does not mention `tc`: attributes are looked up in the schema
   (lookup_attr_ty), guards are tracked as a capability list. *)
From Cedar Require Import Typecheck BaseFacts ConformProofs TypecheckRules.

Lemma lub_of_subty m a b : subty m a b = true -> lub m a b = Some b.
Proof. intros H. destruct a; cbn [lub]; rewrite H; reflexivity. Qed.

Lemma lub_eqb_single n : lub_eqb [n] [n] = true.
Proof.
  assert (H : forallb (lub_contains [n]) [n] = true).
  { apply forallb_forall. intros x [<-|[]]. apply lub_contains_In. left. reflexivity. }
  unfold lub_eqb. rewrite H. reflexivity.
Qed.

Section Simple.
  Variable sch : schema.
  Variable env : reqenv.

  Definition er (t : ty) : bool := existsb (subty Permissive t) [ty_any_entity; ty_any_record].

  (* strict equality needs lub Strict t t *)
  Definition scalar (t : ty) : bool :=
    match t with
    | TLong | TString | TExt _ | TBool _ => true
    | TEntity (ELub [_]) => true
    | _ => false
    end.

  Inductive Access (cs : caps) : expr -> ty -> Prop :=
  | A_var v t : ty_of_var sch env v = Some t -> Access cs (Var v) t
  | A_long z : Access cs (Lit (PLong z)) TLong
  | A_string s : Access cs (Lit (PString s)) TString
  | A_attr p tp a t req :
      Access cs p tp -> er tp = true -> lookup_attr_ty sch tp a = Some (t, req) ->
      (req = true \/ caps_mem (cap_attr p a) cs = true) ->
      Access cs (GetAttr p a) t.

  Inductive Simple (cs : caps) : expr -> Prop :=
  | S_bool b : Simple cs (Lit (PBool b))
  | S_eq a b t : Access cs a t -> Access cs b t -> scalar t = true -> Simple cs (BinApp BEq a b)
  | S_less a b : Access cs a TLong -> Access cs b TLong -> Simple cs (BinApp BLess a b)
  | S_has p tp a : Access cs p tp -> er tp = true -> Simple cs (HasAttr p a)
  | S_not e : Simple cs e -> Simple cs (UnApp UNot e)
  | S_or a b : Simple cs a -> Simple cs b -> Simple cs (Or a b)
  | S_guard_and p tp a t req e :
      Access cs p tp -> er tp = true -> lookup_attr_ty sch tp a = Some (t, req) ->
      Simple (cs ++ [cap_attr p a]) e -> Simple cs (And (HasAttr p a) e)
  | S_guard_if p tp a t req e1 e2 :
      Access cs p tp -> er tp = true -> lookup_attr_ty sch tp a = Some (t, req) ->
      Simple (cs ++ [cap_attr p a]) e1 -> Simple cs e2 -> Simple cs (If (HasAttr p a) e1 e2).

  Lemma access_tc cs e t : Access cs e t -> tc Strict sch env cs e = Some (t, []).
  Proof.
    induction 1 as [v t Hv| | |p tp a t req Hp IHp Her Hl Hreq].
    - rewrite tc_var, Hv. reflexivity.
    - reflexivity.
    - reflexivity.
    - rewrite tc_getattr, IHp. unfold expect. unfold er in Her. rewrite Her. cbv beta iota. rewrite Hl.
      destruct Hreq as [->|Hm]; [reflexivity|]. rewrite Hm, orb_true_r. reflexivity.
  Qed.

  Lemma has_tc cs p tp a :
    tc Strict sch env cs p = Some (tp, []) -> er tp = true ->
    exists xg cg, tc Strict sch env cs (HasAttr p a) = Some (TBool xg, cg) /\
      (forall t r, lookup_attr_ty sch tp a = Some (t, r) -> cg = [cap_attr p a] /\ xg <> BFalse).
  Proof.
    intros Hp He. rewrite tc_hasattr, Hp. unfold expect. unfold er in He. rewrite He. cbv beta iota.
    destruct (lookup_attr_ty sch tp a) as [[t [|]]|].
    (* required, optional, not declared; the test each arm makes only picks the boolean type *)
    - cbv zeta. destruct (_ || _).
      all: eexists _, _; split; [reflexivity|].
      all: intros ? ? _; split; [reflexivity|discriminate].
    - destruct (caps_mem _ _).
      all: eexists _, _; split; [reflexivity|].
      all: intros ? ? _; split; [reflexivity|discriminate].
    - destruct (may_have_attr _ _ _).
      all: eexists _, _; split; [reflexivity|].
      all: intros ? ? Habs; discriminate Habs.
  Qed.

  Lemma scalar_refl t : scalar t = true -> lub Strict t t = Some t.
  Proof.
    intros Hs. apply lub_of_subty.
    destruct t as [| | | | |[|[|n [|]]]| |]; cbn [scalar] in Hs; try discriminate Hs.
    - destruct b; reflexivity.
    - reflexivity.
    - reflexivity.
    - cbn [subty entkind_sub is_strict]. apply lub_eqb_single.
    - cbn [subty]. apply name_eqb_refl.
  Qed.

  Theorem simple_accepted cs e : Simple cs e -> exists x c, tc Strict sch env cs e = Some (TBool x, c).
  Proof.
    induction 1 as [cs b
                   |cs a b t Aa Ab Hs
                   |cs a b Aa Ab
                   |cs p tp a Ap Her
                   |cs e _ IHe
                   |cs a b _ IHa _ IHb
                   |cs p tp a t req e Ap Her Hl _ IHe
                   |cs p tp a t req e1 e2 Ap Her Hl _ IH1 _ IH2].
    - destruct b; eexists _, _; reflexivity.
    - (* == *)
      rewrite tc_eq, (access_tc _ _ _ Aa), (access_tc _ _ _ Ab). cbv zeta. cbn [is_strict].
      assert (Hok : forall ann, strict_eq_ok Strict ann t t = true).
      { intros ann. unfold strict_eq_ok. rewrite (scalar_refl _ Hs). destruct ann as [|[| |]| | | | | |]; reflexivity. }
      rewrite Hok. destruct (type_of_equality_bool env a t b t) as [x ->]. eauto.
    - (* < *)
      rewrite (tc_cmp _ _ _ _ BLess) by auto. rewrite (access_tc _ _ _ Aa), (access_tc _ _ _ Ab).
      eexists _, _; reflexivity.
    - (* has *)
      destruct (has_tc cs p tp a (access_tc _ _ _ Ap) Her) as (xg & cg & Hh & _). eauto.
    - (* ! *)
      destruct IHe as (x & c & Hx). rewrite tc_not, Hx, expect_bool_ok. destruct x; eexists _, _; reflexivity.
    - (* || *)
      destruct IHa as (xa & ca & Ha). destruct IHb as (xb & cb & Hb).
      rewrite tc_or, Ha, expect_bool_ok. unfold or_rule.
      destruct xa; try (eexists _, _; reflexivity).
      all: rewrite Hb, expect_bool_ok; destruct xb; eexists _, _; reflexivity.
    - (* e has a && body *)
      destruct (has_tc cs p tp a (access_tc _ _ _ Ap) Her) as (xg & cg & Hh & Hdecl).
      destruct (Hdecl _ _ Hl) as [-> Hnf]. destruct IHe as (xe & ce & He).
      rewrite tc_and, Hh, expect_bool_ok. change (caps_union cs [cap_attr p a]) with (cs ++ [cap_attr p a]).
      unfold and_rule.
      destruct xg; try (exfalso; apply Hnf; reflexivity).
      all: rewrite He, expect_bool_ok; destruct xe; eexists _, _; reflexivity.
    - (* if e has a then .. else .. *)
      destruct (has_tc cs p tp a (access_tc _ _ _ Ap) Her) as (xg & cg & Hh & Hdecl).
      destruct (Hdecl _ _ Hl) as [-> Hnf].
      destruct IH1 as (x1 & c1 & H1). destruct IH2 as (x2 & c2 & H2).
      rewrite tc_if, Hh, expect_bool_ok.
      change (caps_union cs [cap_attr p a]) with (cs ++ [cap_attr p a]).
      unfold if_rule. destruct xg; try (exfalso; apply Hnf; reflexivity).
      + rewrite H1, H2. destruct x1; destruct x2; cbn; eexists _, _; reflexivity.
      + rewrite H1. eexists _, _; reflexivity.
  Qed.
End Simple.
