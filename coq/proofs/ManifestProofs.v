(* C17.  First part: what slicing by a trie keeps (model/Manifest.v slice_val, slice_entity) and how trie paths compose.
   Second part: on a store that is a good slice for the manifest (model/ManifestSpec.v), every expression of
   the visible fragment whose manifest requirements are met evaluates as on the full store.
   The two evaluations are related by `rel k`: the same result for KExact, the same error or values equal up
   to sliced records (`vsim`) for KSim.  Only attribute chains, and `if` between them, are KSim; every operator of
   the fragment above them either does not look inside records (`blind`) or asks for exact operands. *)
From Cedar Require Import ManifestSpec BaseFacts EvalProofs AuthzProofs TExprInd.

(* the record case of slice_val as a function of its own *)
Definition slice_fields (t : trie) :=
  fix go (l : list (str * value)) : sres (list (str * value)) :=
    match l with
    | [] => SOk []
    | (k, x) :: l' =>
        match lookup k (t_children t) with
        | None => go l'
        | Some t' => match slice_val t' x, go l' with
                     | SOk x', SOk r' => SOk ((k, x') :: r')
                     | SErr e, _ => SErr e
                     | _, SErr e => SErr e
                     end
        end
    end.

Lemma slice_val_record : forall t r,
  slice_val t (VRecord r) =
  match slice_fields t r with SOk r' => SOk (VRecord r') | SErr e => SErr e end.
Proof.
  reflexivity.
Qed.

Lemma slice_val_record_inv : forall t r r',
  slice_val t (VRecord r) = SOk (VRecord r') -> slice_fields t r = SOk r'.
Proof.
  intros t r r' H. rewrite slice_val_record in H.
  destruct (slice_fields t r); inversion H. reflexivity.
Qed.

Lemma slice_fields_keys : forall t r r',
  slice_fields t r = SOk r' ->
  map fst r' = filter (fun k => has_key k (t_children t)) (map fst r).
Proof.
  intros t r. induction r as [|[k x] r IH]; intros r' H; cbn in *.
  - inversion H. reflexivity.
  - unfold has_key. destruct (lookup k (t_children t)) as [t'|].
    + destruct (slice_val t' x) as [x'|e]; [|discriminate].
      destruct (slice_fields t r) as [r0|e]; [|discriminate].
      inversion H; subst. cbn. f_equal. apply IH. reflexivity.
    + apply IH. exact H.
Qed.

Lemma slice_fields_subset : forall t r r',
  slice_fields t r = SOk r' ->
  forall k v', In (k, v') r' ->
  exists v t', In (k, v) r /\ lookup k (t_children t) = Some t' /\ slice_val t' v = SOk v'.
Proof.
  intros t r. induction r as [|[k0 x] r IH]; intros r' H k v' Hin; cbn in *.
  - inversion H; subst. destruct Hin.
  - destruct (lookup k0 (t_children t)) as [t'|] eqn:L.
    + destruct (slice_val t' x) as [x'|e] eqn:Sx; [|discriminate].
      destruct (slice_fields t r) as [r0|e]; [|discriminate].
      inversion H; subst. destruct Hin as [Heq|Hin].
      * inversion Heq; subst. exists x, t'. auto.
      * destruct (IH r0 eq_refl k v' Hin) as (v & t2 & A & B & C).
        exists v, t2. auto.
    + destruct (IH r' H k v' Hin) as (v & t2 & A & B & C). exists v, t2. auto.
Qed.

(* AccessTrie::slice_entity slices the attribute record and drops tags and ancestors *)
Lemma slice_entity_inv : forall t d d',
  slice_entity t d = SOk d' ->
  slice_fields t (eattrs d) = SOk (eattrs d') /\ etags d' = [] /\ eancestors d' = [].
Proof.
  intros t d d' H. unfold slice_entity, slice_attrs in H. rewrite slice_val_record in H.
  destruct (slice_fields t (eattrs d)); inversion H. auto.
Qed.

Lemma walk_app : forall p q t,
  walk t (p ++ q) = match walk t p with Some t' => walk t' q | None => None end.
Proof.
  induction p as [|a p IH]; intros q t; cbn; [reflexivity|].
  destruct (lookup a (t_children t)); [apply IH|reflexivity].
Qed.

Lemma node_at_snoc : forall m r p a t,
  node_at m (r, p ++ [a]) = Some t ->
  exists tp, node_at m (r, p) = Some tp /\ lookup a (t_children tp) = Some t.
Proof.
  intros m r p a t. unfold node_at. cbn [fst snd].
  destruct (lookup_root r m) as [t0|]; [|discriminate]. rewrite walk_app.
  destruct (walk t0 p) as [tp|]; [|discriminate]. cbn [walk].
  destruct (lookup a (t_children tp)) as [ta|] eqn:L; [|discriminate].
  intros H. inversion H; subst ta. eauto.
Qed.

(* what `adequate` guarantees about a GetAttr chain it accepted *)
Lemma adequate_getattr_covered : forall sl m e a ty p,
  adequate sl m (TEGetAttr e a ty) = true ->
  direct_path sl (TEGetAttr e a ty) = Some p ->
  exists t, node_at m p = Some t.
Proof.
  intros sl m e a ty p H D.
  cbn [adequate] in H. apply Bool.andb_true_iff in H. destruct H as [H _].
  unfold here_ok in H. rewrite D in H.
  unfold covers in H.
  cbn [direct_path] in D. destruct (direct_path sl e) as [[r p0]|]; [|discriminate].
  inversion D; subst. cbn [snd] in H.
  destruct (p0 ++ [a]) eqn:E.
  - destruct p0; discriminate.
  - destruct (node_at m (r, s :: l)) as [t|]; [|discriminate]. exists t. reflexivity.
Qed.

Definition rres {A B} (R : A -> B -> Prop) (r : res A) (r' : res B) : Prop :=
  match r, r' with
  | Ok v, Ok v' => R v v'
  | Err e, Err e' => e' = e
  | _, _ => False
  end.

Lemma rres_mono {A B} (R S : A -> B -> Prop) r r' :
  (forall v v', R v v' -> S v v') -> rres R r r' -> rres S r r'.
Proof. destruct r, r'; cbn; auto. Qed.

Lemma rres_bind {A B C D} (R : A -> B -> Prop) (S : C -> D -> Prop) r r' f f' :
  rres R r r' -> (forall v v', R v v' -> rres S (f v) (f' v')) -> rres S (bind r f) (bind r' f').
Proof. destruct r, r'; cbn; try contradiction; [auto | intros -> _; reflexivity]. Qed.

Lemma bind_exact {A B C} (R : A -> B -> Prop) r r' (f : A -> res C) (f' : B -> res C) :
  rres R r r' -> (forall v v', R v v' -> f' v' = f v) -> bind r' f' = bind r f.
Proof. destruct r, r'; cbn; try contradiction; [auto | intros -> _; reflexivity]. Qed.

Definition vsim (v v' : value) : Prop :=
  match v with VRecord _ => exists r', v' = VRecord r' | _ => v' = v end.

Lemma vsim_refl v : vsim v v.
Proof. destruct v; cbn; eauto. Qed.

Definition blind {A} (f : value -> A) : Prop := forall v v', vsim v v' -> f v' = f v.

Lemma blind_intro {A} (f : value -> A) : (forall r r', f (VRecord r') = f (VRecord r)) -> blind f.
Proof.
  intros H v v' S. destruct v; cbn in S; try (subst; reflexivity). destruct S as [r' ->]. apply H.
Qed.

Definition rel (k : kind) (r r' : res value) : Prop :=
  match k with KExact => r' = r | KSim => rres vsim r r' end.

Lemma rel_weaken k r r' : rel k r r' -> rres vsim r r'.
Proof. destruct k; cbn; [|auto]. intros ->. destruct r; cbn; [apply vsim_refl | reflexivity]. Qed.

Lemma rel_err k e : rel k (Err e) (Err e).
Proof. destruct k; reflexivity. Qed.

Lemma rel_meet_l ka kb r r' : rel ka r r' -> rel (kind_meet ka kb) r r'.
Proof. destruct ka, kb; cbn [kind_meet]; auto; apply (rel_weaken KExact). Qed.
Lemma rel_meet_r ka kb r r' : rel kb r r' -> rel (kind_meet ka kb) r r'.
Proof. destruct ka, kb; cbn [kind_meet]; auto; apply (rel_weaken KExact). Qed.

Lemma bind_rel {A B} (R : A -> B -> Prop) k r r' f f' :
  rres R r r' -> (forall v v', R v v' -> rel k (f v) (f' v')) -> rel k (bind r f) (bind r' f').
Proof. destruct k; [apply bind_exact | apply rres_bind]. Qed.

Lemma as_bool_blind : blind as_bool.
Proof. apply blind_intro; reflexivity. Qed.
Lemma as_entity_blind : blind as_entity.
Proof. apply blind_intro; reflexivity. Qed.

Lemma unary_blind op : blind (unary_app op).
Proof. destruct op; apply blind_intro; reflexivity. Qed.

Definition blind_op (op : binop) : bool :=
  match op with
  | BLess | BLessEq | BAdd | BSub | BMul | BContainsAll | BContainsAny => true
  | _ => false
  end.

Lemma binary_blind st st' op a a' b b' :
  blind_op op = true -> vsim a a' -> vsim b b' -> binary_app st' op a' b' = binary_app st op a b.
Proof.
  intros Hop Ha Hb.
  replace (binary_app st' op) with (binary_app st op) by (destruct op; try discriminate; reflexivity).
  transitivity (binary_app st op a b').
  - revert a a' Ha. apply (blind_intro (fun a => binary_app st op a b')).
    destruct op; try discriminate; reflexivity.
  - revert b b' Hb. apply (blind_intro (binary_app st op a)).
    destruct op; try discriminate; try reflexivity; destruct a as [[ | | | ] | | | ]; reflexivity.
Qed.

(* the uids `eval_in` tests *)
Definition rhs_us (v : value) : res (list uid) :=
  match v with
  | VPrim (PEntity u) => Ok [u]
  | VSet l => mapM as_entity l
  | _ => Err ErrType
  end.

Lemma rhs_us_blind : blind rhs_us.
Proof. apply blind_intro; reflexivity. Qed.

Lemma as_entity_inv v u : as_entity v = Ok u -> v = VEntity u.
Proof. destruct v as [[ | | | u0] | | | ]; try discriminate. intros H. inversion H. reflexivity. Qed.

Lemma rhs_us_targets v us : rhs_us v = Ok us -> forall u, In u us -> In u (targets v).
Proof.
  destruct v as [[ | | | u0] | l | | ]; try discriminate; cbn [rhs_us targets].
  - intros H u Hin. inversion H; subst. exact Hin.
  - revert us. induction l as [|x l IH]; cbn [mapM flat_map]; intros us H u Hin.
    + inversion H; subst. destruct Hin.
    + destruct (as_entity x) as [u0|] eqn:Ex; [|discriminate].
      destruct (mapM as_entity l) as [us0|]; [|discriminate]. inversion H; subst.
      apply as_entity_inv in Ex. subst x.
      destruct Hin as [<-|Hin]; [left; reflexivity | right; eapply IH; eauto].
Qed.

Section Sound.
  Variable q : request.
  Variables es es' : entities.

  (* the local `kids` of `agree` as a function of its own, so that `agree` has an equation *)
  Fixpoint kids_agree (l : list (str * trie)) (get get' : str -> option value) : Prop :=
    match l with
    | [] => True
    | (a, t') :: l' =>
        match get a, get' a with
        | None, None => True
        | Some x, Some x' => agree q es es' t' x x'
        | _, _ => False
        end /\ kids_agree l' get get'
    end.

  Lemma agree_eq ch anc b v v' :
    agree q es es' (Trie ch anc b) v v' =
    match v with
    | VPrim (PEntity u) =>
        v' = v /\
        match find_entity u es, find_entity u es' with
        | None, None => True
        | Some d, Some d' =>
            kids_agree ch (fun a => lookup a (eattrs d)) (fun a => lookup a (eattrs d')) /\ anc_ok q es anc d d'
        | _, _ => False
        end
    | VRecord r => exists r', v' = VRecord r' /\ kids_agree ch (fun a => lookup a r) (fun a => lookup a r')
    | _ => v' = v
    end.
  Proof. destruct v as [[ | | | u] | | r | ]; reflexivity. Qed.

  Lemma kids_get_attr : forall ch r r' a ta,
    kids_agree ch (fun a => lookup a r) (fun a => lookup a r') -> lookup a ch = Some ta ->
    rres (agree q es es' ta) (get_attr es (VRecord r) a) (get_attr es' (VRecord r') a).
  Proof.
    induction ch as [|[k t'] ch IH]; cbn [kids_agree lookup]; intros r r' a ta H L; [discriminate|].
    destruct H as [H1 H2]. destruct (str_eqb a k) eqn:E; [|exact (IH _ _ _ _ H2 L)].
    apply str_eqb_eq in E. subst k. inversion L; subst t'. cbn [get_attr].
    destruct (lookup a r), (lookup a r'); try contradiction; [exact H1 | reflexivity].
  Qed.

  Lemma agree_vsim t v v' : agree q es es' t v v' -> vsim v v'.
  Proof.
    destruct t as [ch anc b]. rewrite agree_eq.
    destruct v as [[ | | | u] | | r | ]; cbn; auto.
    - intros [H _]; exact H.
    - intros [r' [H _]]. eauto.
  Qed.

  (* how `agree` is established: entity present on both sides, listed attributes agreeing one by one *)
  Lemma agree_entity ch anc b u d d' :
    find_entity u es = Some d -> find_entity u es' = Some d' ->
    kids_agree ch (fun a => lookup a (eattrs d)) (fun a => lookup a (eattrs d')) -> anc_ok q es anc d d' ->
    agree q es es' (Trie ch anc b) (VEntity u) (VEntity u).
  Proof. intros F F' K A. rewrite agree_eq. unfold VEntity. rewrite F, F'. auto. Qed.

  Lemma kids_agree_cons a t l get get' x x' :
    get a = Some x -> get' a = Some x' -> agree q es es' t x x' -> kids_agree l get get' ->
    kids_agree ((a, t) :: l) get get'.
  Proof. intros G G' A K. cbn [kids_agree]. rewrite G, G'. auto. Qed.

  Lemma anc_ok_nil d d' : anc_ok q es [] d d'.
  Proof. intros r t0 p t1 v x L. discriminate L. Qed.

  Lemma get_attr_agree t v v' a ta :
    agree q es es' t v v' -> lookup a (t_children t) = Some ta ->
    rres (agree q es es' ta) (get_attr es v a) (get_attr es' v' a).
  Proof.
    destruct t as [ch anc b]. rewrite agree_eq. intros H L.
    destruct v as [[ | | | u] | | r | ]; try (subst; exact eq_refl).
    - destruct H as [-> H]. cbn [get_attr].
      destruct (find_entity u es) as [d|], (find_entity u es') as [d'|]; try contradiction; [|exact eq_refl].
      destruct H as [Hk _]. exact (kids_get_attr _ _ _ _ _ Hk L).
    - destruct H as [r' [-> Hk]]. exact (kids_get_attr _ _ _ _ _ Hk L).
  Qed.

  Lemma has_attr_agree t v v' a ta :
    agree q es es' t v v' -> lookup a (t_children t) = Some ta ->
    has_attr es' v' a = has_attr es v a.
  Proof.
    intros H L. rewrite !has_attr_get_attr. pose proof (get_attr_agree _ _ _ _ _ H L) as G.
    destruct (get_attr es v a), (get_attr es' v' a); cbn in G; try contradiction; [|subst]; reflexivity.
  Qed.

  Lemma path_agree : forall p t0 t1 v0 v0',
    agree q es es' t0 v0 v0' -> walk t0 p = Some t1 ->
    rres (agree q es es' t1) (path_from es v0 p) (path_from es' v0' p).
  Proof.
    induction p as [|a p IH]; intros t0 t1 v0 v0' H W; cbn in *.
    - inversion W; subst. exact H.
    - destruct (lookup a (t_children t0)) as [ta|] eqn:L; [|discriminate].
      eapply rres_bind; [exact (get_attr_agree _ _ _ _ _ H L)|].
      intros x x' Hx. exact (IH _ _ _ _ Hx W).
  Qed.

  Lemma path_from_snoc st : forall p v a,
    path_from st v (p ++ [a]) = bind (path_from st v p) (fun x => get_attr st x a).
  Proof.
    induction p as [|b p IH]; intros v a; cbn.
    - destruct (get_attr st v a); reflexivity.
    - destruct (get_attr st v b); cbn; [apply IH | reflexivity].
  Qed.

  Variable m : rtrie.
  Hypothesis Hgood : good_slice q es es' m.

  Lemma node_agree r p t :
    node_at m (r, p) = Some t -> rres (agree q es es' t) (path_val q es (r, p)) (path_val q es' (r, p)).
  Proof.
    unfold node_at, path_val. cbn [fst snd]. intros N.
    destruct (lookup_root r m) as [t0|] eqn:L; [|discriminate].
    exact (path_agree _ _ _ _ _ (Hgood _ _ L) N).
  Qed.

  Lemma node_rel r p t : node_at m (r, p) = Some t -> rel KSim (path_val q es (r, p)) (path_val q es' (r, p)).
  Proof. intros N. exact (rres_mono _ _ _ _ (agree_vsim t) (node_agree _ _ _ N)). Qed.

  Lemma covers_rel p : covers m p = true -> rel KSim (path_val q es p) (path_val q es' p).
  Proof.
    destruct p as [r p]. unfold covers. cbn [snd]. destruct p as [|a p].
    - intros _. apply vsim_refl.
    - destruct (node_at m (r, a :: p)) as [t|] eqn:N; [|discriminate]. intros _. exact (node_rel _ _ _ N).
  Qed.

  Variable sl : slotenv.

  Lemma direct_path_eval st : forall e rr pp,
    direct_path sl e = Some (rr, pp) -> eval sl q st (erase e) = path_val q st (rr, pp).
  Proof.
    induction e; intros rr pp D; cbn in D; try discriminate.
    - destruct p; try discriminate. inversion D; subst. reflexivity.
    - inversion D; subst. reflexivity.
    - cbn. destruct (slot_lookup s sl); cbn in D; [|discriminate]. inversion D; subst. reflexivity.
    - destruct (direct_path sl e) as [[r0 p0]|]; [|discriminate]. inversion D; subst.
      cbn [erase]. rewrite eval_getattr, (IHe _ _ eq_refl). unfold path_val. cbn [fst snd].
      rewrite path_from_snoc. reflexivity.
  Qed.

  Definition sound_at (e : texpr) : Prop :=
    forall k, frag sl m e = Some k -> rel k (eval sl q es (erase e)) (eval sl q es' (erase e)).

  (* whatever its kind, an operand in the fragment may be followed by any record-blind continuation *)
  Lemma sound_bind {A} e k (f f' : value -> res A) :
    sound_at e -> frag sl m e = Some k -> (forall v v', vsim v v' -> f' v' = f v) ->
    bind (eval sl q es' (erase e)) f' = bind (eval sl q es (erase e)) f.
  Proof. intros H F. exact (bind_exact vsim _ _ _ _ (rel_weaken _ _ _ (H _ F))). Qed.

  Lemma sound_exact e :
    sound_at e -> frag sl m e = Some KExact -> eval sl q es' (erase e) = eval sl q es (erase e).
  Proof. intros H F. exact (H _ F). Qed.

  Lemma eval_list_exact args :
    Forall sound_at args -> all_exact (map (frag sl m) args) = true ->
    eval_list sl q es' (map erase args) = eval_list sl q es (map erase args).
  Proof.
    induction 1 as [|e l He Hl IH]; cbn [map all_exact forallb]; [reflexivity|].
    destruct (frag sl m e) as [[|]|] eqn:F; try discriminate. intros A.
    rewrite !eval_list_cons, (sound_exact _ He F), (IH A). reflexivity.
  Qed.

  Lemma eval_rec_exact items :
    Forall (fun kv => sound_at (snd kv)) items ->
    all_exact (map (fun kv => frag sl m (snd kv)) items) = true ->
    eval_rec sl q es' (map (fun kv => (fst kv, erase (snd kv))) items)
    = eval_rec sl q es (map (fun kv => (fst kv, erase (snd kv))) items).
  Proof.
    induction 1 as [|[k e] l He Hl IH]; cbn [map all_exact forallb fst snd] in *; [reflexivity|].
    destruct (frag sl m e) as [[|]|] eqn:F; try discriminate. intros A.
    rewrite !eval_rec_cons, (sound_exact _ He F), (IH A). reflexivity.
  Qed.

  (* x is an ancestor the slice keeps exactly, for every entity whose ancestors trie is at_ *)
  Definition kept (at_ : rtrie) (x : uid) : Prop :=
    forall d d', anc_ok q es at_ d d' -> is_descendant_of d' x = is_descendant_of d x.

  (* what a covered path that at_ marks evaluates to on es (v) and on es' (v') *)
  Definition tsim (at_ : rtrie) (v v' : value) : Prop :=
    vsim v v' /\ forall x, In x (targets v) -> kept at_ x.

  (* what a right operand of `in` evaluates to on es (v) and on es' (v'): the same uids, all of them kept *)
  Definition rhs_ok (at_ : rtrie) (v v' : value) : Prop :=
    rhs_us v' = rhs_us v /\ forall x, In x (targets v) -> kept at_ x.

  Lemma marked_path at_ p :
    covers m p = true -> anc_marked at_ p = true -> rres (tsim at_) (path_val q es p) (path_val q es' p).
  Proof.
    intros C M. pose proof (covers_rel _ C) as R. cbn [rel] in R.
    destruct (path_val q es p) as [v|] eqn:P, (path_val q es' p) as [v'|]; cbn in *; try assumption.
    split; [exact R|]. intros x I d d' A.
    destruct p as [r pp]. unfold anc_marked, node_at, path_val in *. cbn [fst snd] in *.
    destruct (lookup_root r at_) as [t0|] eqn:L; [|discriminate].
    destruct (walk t0 pp) as [t1|] eqn:W; [|discriminate].
    exact (A _ _ _ _ _ _ L W M P I).
  Qed.

  Lemma tsim_rhs at_ v v' : tsim at_ v v' -> rhs_ok at_ v v'.
  Proof. intros [S T]. split; [exact (rhs_us_blind _ _ S) | exact T]. Qed.

  Lemma tsim_set at_ vs vs' : Forall2 (tsim at_) vs vs' -> rhs_ok at_ (VSet vs) (VSet vs').
  Proof.
    unfold rhs_ok. cbn [rhs_us targets].
    induction 1 as [|v v' vs vs' [S T] _ [IH1 IH2]]; cbn [mapM flat_map].
    - split; [reflexivity | intros x []].
    - rewrite (as_entity_blind _ _ S), IH1. split; [reflexivity|]. intros x I.
      apply in_app_or in I as [I|I]; [|exact (IH2 _ I)].
      apply T. destruct v as [[ | | | u] | | | ]; try contradiction I. exact I.
  Qed.

  Lemma paths_list at_ : forall items ts,
    omapM (direct_path sl) items = Some ts ->
    forallb (covers m) ts = true -> forallb (anc_marked at_) ts = true ->
    rres (Forall2 (tsim at_)) (eval_list sl q es (map erase items)) (eval_list sl q es' (map erase items)).
  Proof.
    induction items as [|e items IH]; intros ts O C M; cbn in O.
    - constructor.
    - destruct (direct_path sl e) as [[r pp]|] eqn:D; [|discriminate].
      destruct (omapM (direct_path sl) items) as [ts0|]; [|discriminate].
      inversion O; subst ts. cbn in C, M.
      apply andb_true_iff in C as [C1 C2]. apply andb_true_iff in M as [M1 M2].
      cbn [map]. rewrite !eval_list_cons, !(direct_path_eval _ _ _ _ D).
      eapply rres_bind; [exact (marked_path _ _ C1 M1)|]. intros v v' Hv.
      eapply rres_bind; [exact (IH _ eq_refl C2 M2)|]. intros vs vs' Hvs.
      constructor; assumption.
  Qed.

  Lemma in_targets_inv b ts :
    in_targets sl b = Some ts ->
    (exists p, direct_path sl b = Some p /\ ts = [p]) \/
    (exists items t, b = TESet items t /\ omapM (direct_path sl) items = Some ts).
  Proof.
    assert (S : forall o : option apath,
                option_map (fun p => [p]) o = Some ts -> exists p, o = Some p /\ ts = [p]).
    { intros [p|] H; inversion H. eauto. }
    destruct b; intros T; try (left; exact (S _ T)). right. exists items, t. auto.
  Qed.

  Lemma in_rhs_sound at_ b ts :
    in_targets sl b = Some ts -> forallb (covers m) ts = true -> forallb (anc_marked at_) ts = true ->
    rres (rhs_ok at_) (eval sl q es (erase b)) (eval sl q es' (erase b)).
  Proof.
    intros T C M. destruct (in_targets_inv _ _ T) as [([r pp] & D & ->) | (items & t & -> & O)].
    - cbn in C, M. rewrite andb_true_r in C, M. rewrite !(direct_path_eval _ _ _ _ D).
      exact (rres_mono _ _ _ _ (tsim_rhs at_) (marked_path _ _ C M)).
    - cbn [erase]. rewrite !eval_set.
      eapply rres_bind; [exact (paths_list _ _ _ O C M)|]. intros vs vs'. apply tsim_set.
  Qed.

  (* on the slice, `u in vb` tests the same uids against ancestors that were all kept *)
  Lemma eval_in_agree ta u vb vb' :
    agree q es es' ta (VEntity u) (VEntity u) -> rhs_ok (t_anc ta) vb vb' ->
    eval_in es' u vb' = eval_in es u vb.
  Proof.
    intros A [E M]. unfold eval_in. fold (rhs_us vb) (rhs_us vb'). rewrite E.
    destruct (rhs_us vb) as [us|] eqn:Eu; [|reflexivity]. cbn [bind]. f_equal. f_equal.
    apply existsb_ext_in. intros x Hx. f_equal.
    destruct ta as [ch anc b]. rewrite agree_eq in A. unfold VEntity in A. destruct A as [_ A].
    destruct (find_entity u es) as [d|], (find_entity u es') as [d'|]; try contradiction; [|reflexivity].
    destruct A as [_ Anc]. exact (M _ (rhs_us_targets _ _ Eu _ Hx) _ _ Anc).
  Qed.

  (* e evaluates its operand a and applies a record-blind f to the value *)
  Lemma sound_strict e a (f : value -> res value) :
    frag sl m e = match frag sl m a with Some _ => Some KExact | None => None end ->
    (forall st, eval sl q st (erase e) = bind (eval sl q st (erase a)) f) ->
    blind f -> sound_at a -> sound_at e.
  Proof.
    intros Fe Ee Bf IHa k F. rewrite Fe in F.
    destruct (frag sl m a) as [ka|] eqn:Fa; [|discriminate]. inversion F; subst k.
    cbn [rel]. rewrite !Ee. exact (sound_bind _ _ _ _ IHa Fa Bf).
  Qed.

  (* && and ||: g says which of the first operand's truth values short-circuits *)
  Lemma sound_shortcut e a b (g : bool -> res value -> res value) :
    frag sl m e = match frag sl m a, frag sl m b with Some _, Some _ => Some KExact | _, _ => None end ->
    (forall st, eval sl q st (erase e) =
                do va <- eval sl q st (erase a); do x <- as_bool va;
                g x (do vb <- eval sl q st (erase b); do y <- as_bool vb; Ok (VBool y))) ->
    sound_at a -> sound_at b -> sound_at e.
  Proof.
    intros Fe Ee IHa IHb k F. rewrite Fe in F.
    destruct (frag sl m a) as [ka|] eqn:Fa; [|discriminate].
    destruct (frag sl m b) as [kb|] eqn:Fb; [|discriminate]. inversion F; subst k.
    cbn [rel]. rewrite !Ee.
    rewrite (sound_bind _ _ (fun vb => do y <- as_bool vb; Ok (VBool y)) _ IHb Fb)
      by (apply blind_intro; reflexivity).
    apply (sound_bind _ _ _ _ IHa Fa), blind_intro. reflexivity.
  Qed.

  Lemma sound_if c a b t : sound_at c -> sound_at a -> sound_at b -> sound_at (TEIf c a b t).
  Proof.
    intros IHc IHa IHb k F. cbn [frag] in F.
    destruct (frag sl m c) as [kc|] eqn:Fc; [|discriminate].
    destruct (frag sl m a) as [ka|] eqn:Fa; [|discriminate].
    destruct (frag sl m b) as [kb|] eqn:Fb; [|discriminate].
    inversion F; subst k. cbn [erase]. rewrite !eval_if. unfold branch.
    apply (bind_rel vsim); [exact (rel_weaken _ _ _ (IHc _ Fc))|]. intros v v' Hs. rewrite (as_bool_blind _ _ Hs).
    destruct (as_bool v) as [[|]|]; cbn [bind]; [apply rel_meet_l | apply rel_meet_r | apply rel_err]; auto.
  Qed.

  Lemma sound_blind_binop op a b t :
    blind_op op = true -> sound_at a -> sound_at b -> sound_at (TEBinApp op a b t).
  Proof.
    intros Hop IHa IHb k F.
    assert (F0 : match frag sl m a, frag sl m b with Some _, Some _ => Some KExact | _, _ => None end = Some k)
      by (destruct op; try discriminate; exact F).
    destruct (frag sl m a) as [ka|] eqn:Fa; [|discriminate].
    destruct (frag sl m b) as [kb|] eqn:Fb; [|discriminate]. inversion F0; subst k.
    cbn [erase rel]. rewrite !eval_binapp.
    apply (sound_bind _ _ _ _ IHa Fa). intros va va' Ha.
    apply (sound_bind _ _ _ _ IHb Fb). intros vb vb' Hb.
    apply binary_blind; assumption.
  Qed.

  (* expressions that never evaluate to a record: the same primitive or error in every store *)
  Lemma nonrec_eval e :
    nonrec e = true -> exists r : res prim, forall st, eval sl q st (erase e) = do p <- r; Ok (VPrim p).
  Proof.
    destruct e; try discriminate; cbn [nonrec erase eval].
    - exists (Ok p). reflexivity.
    - destruct v; try discriminate; intros _; eexists (Ok (PEntity _)); reflexivity.
    - exists (match slot_lookup s sl with Some u => Ok (PEntity u) | None => Err ErrUnlinkedSlot end).
      intros _. destruct (slot_lookup s sl); reflexivity.
  Qed.

  Lemma eq_kind_inv (oa ob : option kind) (n : bool) k :
    match oa, ob with
    | Some KExact, Some KExact => Some KExact
    | Some _, Some _ => if n then Some KExact else None
    | _, _ => None
    end = Some k ->
    k = KExact /\ exists ka kb, oa = Some ka /\ ob = Some kb /\ (ka = KExact /\ kb = KExact \/ n = true).
  Proof.
    destruct oa as [[|]|], ob as [[|]|], n; intros H; inversion H.
    all: split; [reflexivity|].
    all: do 2 eexists; repeat split; auto.
  Qed.

  (* == sees inside records: both operands exact, or one of them never a record *)
  Lemma sound_eq a b t : sound_at a -> sound_at b -> sound_at (TEBinApp BEq a b t).
  Proof.
    intros IHa IHb k F. cbn [frag] in F.
    destruct (eq_kind_inv _ _ _ _ F) as (-> & ka & kb & Fa & Fb & [[-> ->] | N]).
    all: cbn [erase rel]; rewrite !eval_binapp; cbn [binary_app].
    - rewrite (sound_exact _ IHa Fa), (sound_exact _ IHb Fb). reflexivity.
    - apply orb_true_iff in N as [N|N]; destruct (nonrec_eval _ N) as [[p|] E]; rewrite !E; cbn [bind].
      + apply (sound_bind _ _ _ _ IHb Fb), blind_intro. reflexivity.
      + reflexivity.
      + apply (sound_bind _ _ _ _ IHa Fa), blind_intro. reflexivity.
      + apply (sound_bind _ _ _ _ IHa Fa). reflexivity.
  Qed.

  Lemma sound_contains a b t : sound_at a -> sound_at b -> sound_at (TEBinApp BContains a b t).
  Proof.
    intros IHa IHb k F. cbn [frag] in F.
    destruct (frag sl m a) as [ka|] eqn:Fa; [|discriminate].
    destruct (frag sl m b) as [[|]|] eqn:Fb; try discriminate. inversion F; subst k.
    cbn [erase rel]. rewrite !eval_binapp, (sound_exact _ IHb Fb). cbn [binary_app].
    apply (sound_bind _ _ _ _ IHa Fa), blind_intro. reflexivity.
  Qed.

  Lemma sound_in a b t : sound_at (TEBinApp BIn a b t).
  Proof.
    intros k F. cbn [frag] in F.
    destruct (direct_path sl a) as [[ra pa]|] eqn:Da; [|discriminate].
    destruct (in_targets sl b) as [ts|] eqn:Tb; [|discriminate].
    destruct (covers_in m (ra, pa) ts && forallb (covers m) ts) eqn:C; [|discriminate].
    inversion F; subst k. apply andb_true_iff in C as [C1 C2].
    unfold covers_in in C1. destruct (node_at m (ra, pa)) as [ta|] eqn:Na; [|discriminate].
    cbn [erase rel]. rewrite !eval_binapp, !(direct_path_eval _ _ _ _ Da).
    apply (bind_exact (agree q es es' ta)); [exact (node_agree _ _ _ Na)|]. intros va va' Aa.
    apply (bind_exact (rhs_ok (t_anc ta))); [exact (in_rhs_sound _ _ _ Tb C2 C1)|]. intros vb vb' Hb.
    cbn [binary_app]. pose proof (agree_vsim _ _ _ Aa) as Sa. rewrite (as_entity_blind _ _ Sa).
    destruct va as [[ | | | u] | | | ]; try reflexivity. cbn in Sa. subst va'.
    exact (eval_in_agree _ _ _ _ Aa Hb).
  Qed.

  Lemma sound_binapp op a b t : sound_at a -> sound_at b -> sound_at (TEBinApp op a b t).
  Proof.
    intros IHa IHb. destruct (blind_op op) eqn:Hop; [apply sound_blind_binop; assumption|].
    destruct op; try discriminate Hop.
    - apply sound_eq; assumption.
    - apply sound_in.
    - apply sound_contains; assumption.
    - intros k F. discriminate.
    - intros k F. discriminate.
  Qed.

  Lemma sound_getattr e a t : sound_at (TEGetAttr e a t).
  Proof.
    intros k F. cbn [frag] in F.
    destruct (direct_path sl (TEGetAttr e a t)) as [[r p]|] eqn:D; [|discriminate].
    unfold node_covered in F. destruct (node_at m (r, p)) as [tn|] eqn:N; [|discriminate].
    inversion F; subst k. rewrite !(direct_path_eval _ _ _ _ D). exact (node_rel _ _ _ N).
  Qed.

  Lemma sound_hasattr e a t : sound_at (TEHasAttr e a t).
  Proof.
    intros k F. cbn [frag] in F.
    destruct (direct_path sl e) as [[r p]|] eqn:D; [|discriminate].
    unfold node_covered in F. destruct (node_at m (r, p ++ [a])) as [tn|] eqn:N; [|discriminate].
    inversion F; subst k. destruct (node_at_snoc _ _ _ _ _ N) as (tp & Np & La).
    cbn [erase rel]. rewrite !eval_hasattr, !(direct_path_eval _ _ _ _ D).
    apply (bind_exact (agree q es es' tp)); [exact (node_agree _ _ _ Np)|]. intros v v' A.
    exact (has_attr_agree _ _ _ _ _ A La).
  Qed.

  (* extension calls and set literals: every operand exact, then f on the list of values *)
  Lemma sound_list e args (f : list value -> res value) :
    frag sl m e = (if all_exact (map (frag sl m) args) then Some KExact else None) ->
    (forall st, eval sl q st (erase e) = bind (eval_list sl q st (map erase args)) f) ->
    Forall sound_at args -> sound_at e.
  Proof.
    intros Fe Ee IH k F. rewrite Fe in F.
    destruct (all_exact (map (frag sl m) args)) eqn:A; [|discriminate]. inversion F; subst k.
    cbn [rel]. rewrite !Ee, (eval_list_exact _ IH A). reflexivity.
  Qed.

  Lemma sound_record items t : Forall (fun kv => sound_at (snd kv)) items -> sound_at (TERecord items t).
  Proof.
    intros IH k F. cbn [frag] in F.
    destruct (all_exact (map (fun kv => frag sl m (snd kv)) items)) eqn:A; [|discriminate]. inversion F; subst k.
    cbn [erase rel]. rewrite !eval_record, (eval_rec_exact _ IH A). reflexivity.
  Qed.

  Theorem frag_sound : forall e, sound_at e.
  Proof.
    apply texpr_ind'.
    - intros p t k F. inversion F. reflexivity.
    - intros v t k F. inversion F. reflexivity.
    - intros s t k F. inversion F. reflexivity.
    - intros n rt t k F. inversion F. reflexivity.
    - exact sound_if.
    - intros a b t. apply (sound_shortcut _ a b (fun x rb => if x then rb else Ok (VBool false))); reflexivity.
    - intros a b t. apply (sound_shortcut _ a b (fun x rb => if x then Ok (VBool true) else rb)); reflexivity.
    - intros op a t. apply (sound_strict _ a (unary_app op)); [reflexivity | reflexivity | apply unary_blind].
    - exact sound_binapp.
    - intros fn args t. apply (sound_list _ args (call_ext fn)); [reflexivity | intros st; apply eval_ext].
    - intros e a t _. apply sound_getattr.
    - intros e a t _. apply sound_hasattr.
    - intros e p t.
      apply (sound_strict _ e (fun v => do s <- as_string v; Ok (VBool (wildcard p s))));
        [reflexivity | reflexivity | apply blind_intro; reflexivity].
    - intros e et t.
      apply (sound_strict _ e (fun v => do u <- as_entity v; Ok (VBool (name_eqb (uty u) et))));
        [reflexivity | reflexivity | apply blind_intro; reflexivity].
    - intros items t. apply (sound_list _ items (fun vs => Ok (VSet vs))); [reflexivity | intros st; apply eval_set].
    - exact sound_record.
  Qed.
End Sound.

Theorem response_sound : forall q es es' m ps,
  good_slice q es es' m ->
  (forall p, In p ps -> exists te, pcondition p = erase te /\ frag (penv p) m te = Some KExact) ->
  is_authorized ps q es' = is_authorized ps q es.
Proof.
  intros q es es' m ps G H. apply is_authorized_ext. intros p Hp. destruct (H p Hp) as [te [Hc Hf]].
  unfold eval_policy. rewrite Hc, (frag_sound q es es' m G (penv p) te KExact Hf). reflexivity.
Qed.
