(* C04 — hierarchy membership equals parent-reachability after any store history.

   What is carried for ALL graphs / stores / operation lists (no bound):
   * c04_closure_correct, c04_closure_fuel: the cached closure computed by saturation is exactly
     `reach` (one or more direct-parent steps through entities present in the graph; a parent without
     a record is a leaf), and the fuel used is always sufficient (OutOfFuel unreachable).
   * c04_recompute_inv / c04_recompute_reject: recomputation yields a store satisfying Inv
     (ancestors = reach, no self-ancestor, parents/indirect disjoint) with unchanged direct parents,
     fails only with Cycle, and fails iff some entity reaches itself.
   * c04_spec_op_inv / c04_spec_op_reject / c04_spec_op_cycle_rejected: every ComputeNow operation
     (from/add/upsert/remove) of the spec layer = the edit of the direct parents exactly as the Rust
     code performs it (s_edit) followed by recomputation: success gives Inv over the edited graph (so no
     ancestor survives the removal or replacement of the only path that justified it); failure is
     Duplicate (from the map edit) or Cycle, the latter iff the edited graph has a cycle.
   * c04_history: Inv after every history of ComputeNow operations (fold_left from the empty store,
     failed operations leave the store unchanged).
   * c04_queries: under Inv, `e in a`, is_ancestor_of and the ancestor listing are characterised by
     e = a \/ reach, for all pairs, present or absent (is_ancestor_of is reflexive: /repo 13ea66c).
   * c04_enforce, c04_enforce_closed: enforce_tc_and_dag = Ok implies the store is transitively
     closed and loop-free, hence contains every reachable uid and is acyclic.
   The incremental layer (i_add / i_upsert / i_remove: strip + repair_tc + self-loop test on touched
   nodes, as coded) is related to the spec layer in part only, in three steps: (a) the edit phase leaves
   a store whose cached ancestors are all justified by a path and whose untouched entities list all they
   reach, (b) from such a store repair_tc computes the closure, (c) the self-loop test on the touched
   nodes rejects exactly the cyclic graphs.  See c04_inc_* and c04_repair_* below and what each lists as
   MISSING; the rest is compared by correspondence.  The SCC-based compute_tc is represented in the model
   by its contract (recompute). *)
From Cedar Require Import TC TCProofs TCIncProofs.
Open Scope N_scope.

Theorem c04_closure_correct : forall g u c, closure g u = Some c -> forall a, In a c <-> reach g u a.
Proof. exact closure_correct. Qed.
Print Assumptions c04_closure_correct.

Theorem c04_closure_fuel : forall g u, closure g u <> None.
Proof. exact closure_fuel. Qed.
Print Assumptions c04_closure_fuel.

Theorem c04_recompute_inv : forall g s,
  NoDup (map fst g) -> recompute g = TOk s -> Inv s /\ graph_of s = g.
Proof. exact recompute_inv. Qed.
Print Assumptions c04_recompute_inv.

Theorem c04_recompute_reject : forall g,
  (forall e, recompute g = TErr e -> e = ECycle) /\
  (recompute g = TErr ECycle <-> exists u, In u (map fst g) /\ reach g u u).
Proof. exact recompute_reject. Qed.
Print Assumptions c04_recompute_reject.

Theorem c04_spec_op_inv : forall s o s',
  NoDup (keys s) -> s_compute s o = TOk s' ->
  exists s1, s_edit s o = TOk s1 /\ graph_of s' = graph_of s1 /\ Inv s'.
Proof. exact spec_op_inv. Qed.
Print Assumptions c04_spec_op_inv.

Theorem c04_spec_op_reject : forall s o e,
  s_compute s o = TErr e ->
  (e = EDuplicate /\ s_edit s o = TErr EDuplicate) \/
  (e = ECycle /\ exists s1 u, s_edit s o = TOk s1 /\ In u (keys s1) /\ reach (graph_of s1) u u).
Proof. exact spec_op_reject. Qed.
Print Assumptions c04_spec_op_reject.

Theorem c04_spec_op_cycle_rejected : forall s o s1 u,
  s_edit s o = TOk s1 -> In u (keys s1) -> reach (graph_of s1) u u -> s_compute s o = TErr ECycle.
Proof. exact spec_op_cycle_rejected. Qed.
Print Assumptions c04_spec_op_cycle_rejected.

Theorem c04_history : forall ops,
  Forall (fun o => op_compute o = true) ops -> Inv (run_ops s_op ops).
Proof. intros ops H. unfold run_ops. apply history_inv; [exact H | exact Inv_nil]. Qed.
Print Assumptions c04_history.

Theorem c04_queries : forall s, Inv s ->
  (forall e a, q_in s e a = true <-> (e = a \/ reach (graph_of s) e a)) /\
  (forall a e, q_is_ancestor_of s a e = true <-> (a = e \/ reach (graph_of s) e a)) /\
  (forall u, match q_ancestors s u with
             | Some l => forall a, In a l <-> reach (graph_of s) u a
             | None => find u s = None /\ forall a, ~ reach (graph_of s) u a
             end).
Proof. exact queries. Qed.
Print Assumptions c04_queries.

Theorem c04_enforce : forall s s', enforce_tc_and_dag s = TOk s' ->
  s' = s /\
  (forall u n p pn gp, In (u, n) s -> In p (ancestors n) -> find p s = Some pn ->
                       In gp (ancestors pn) -> In gp (ancestors n)) /\
  (forall u n, In (u, n) s -> ~ In u (ancestors n)).
Proof. exact enforce_ok. Qed.
Print Assumptions c04_enforce.

Theorem c04_enforce_closed : forall s s', enforce_tc_and_dag s = TOk s' ->
  forall u n, In (u, n) s -> NoDup (keys s) ->
    (forall a, reach (graph_of s) u a -> In a (ancestors n)) /\ ~ reach (graph_of s) u u.
Proof. exact enforce_closed. Qed.
Print Assumptions c04_enforce_closed.

(* PARTIAL (incremental layer): the EDIT PHASE of every operation as coded (map update, stale-edge
   stripping, removal of parent links), any batch: it fails with the same error as the spec edit, or
   yields a store with the same direct parents, after which the code runs `finish` (repair_tc on the
   touched set / enforce).  What `repair` makes of that store: c04_repair_*, c04_inc_refines_* below. *)
Theorem c04_inc_edit_parents_partial : forall s o,
  match s_edit s o with
  | TErr e => i_op s o = TErr e
  | TOk s1 =>
      match o with
      | OFrom c _ => i_op s o = if c then recompute (graph_of s1) else enforce_tc_and_dag s1
      | OAdd c _ => exists t, i_op s o = finish c true t s1
      | OUpsert c _ => exists s2 t, i_op s o = finish c true t s2 /\ graph_of s2 = graph_of s1
      | ORemove c _ => exists s2 t, i_op s o = finish c false t s2 /\ graph_of s2 = graph_of s1
      end
  end.
Proof. exact inc_edit_parents. Qed.
Print Assumptions c04_inc_edit_parents_partial.

(* Steps (b), and (c) in the acyclic case, about repair_tc as coded (add_ancestors DFS with
   seen/explored, fuel): for ANY store and touched set such that
   (i) every cached ancestor is justified by a path (Sound), (ii) every entity outside the touched set
   already lists everything it reaches (complete), (iii) the parent graph is acyclic:
   `repair` does not run out of fuel, passes the self-loop test on the touched nodes, leaves the direct
   parents unchanged and makes every entity's ancestors exactly `reach`. *)
Theorem c04_repair_correct : forall s T,
  Sound (graph_of s) s ->
  (forall x, In x (keys s) -> ~ In x T -> complete (graph_of s) s x) ->
  acyclic (graph_of s) ->
  exists s', repair T s = TOk s' /\ graph_of s' = graph_of s
             /\ forall u n, find u s' = Some n -> forall a, In a (ancestors n) <-> reach (graph_of s) u a.
Proof. exact repair_correct. Qed.
Print Assumptions c04_repair_correct.

(* On ANY parent graph (cyclic included) whatever `repair` accepts keeps the direct
   parents and lists only ancestors justified by a path; a Cycle error it reports is a real cycle. *)
Theorem c04_repair_sound : forall s T,
  Sound (graph_of s) s ->
  match repair T s with
  | TOk s' => graph_of s' = graph_of s /\ Sound (graph_of s) s'
  | TErr ECycle => exists t, In t (keys s) /\ reach (graph_of s) t t
  | TErr _ => True
  end.
Proof. exact repair_sound. Qed.
Print Assumptions c04_repair_sound.

(* Steps (a), (b) and, on the level of graphs, (c) for add_entities(ComputeNow), any batch, any store with Inv.
   * map edit fails (duplicate): both layers fail with the same error;
   * edited parent graph acyclic: both layers succeed, equal direct parents, equal ancestor sets (the touched
     set computed by the code — added uids plus every entity with a touched ancestor — leaves only complete
     entities untouched, and the coded DFS recomputes the touched ones exactly);
   * the incremental layer reports Cycle: the spec layer reports Cycle (the cycle is real);
   * every cycle of the edited graph runs through touched entities only (so restricting the self-loop
     test to touched nodes loses nothing once their closures are right).
   MISSING for the full refinement: on a CYCLIC edited graph the spec layer rejects
   (c04_spec_op_cycle_rejected), but that the coded DFS produces a self-loop on some touched node (i.e. that
   the incremental layer cannot answer Ok or run out of fuel there) is not proved — correspondence only. *)
Theorem c04_inc_refines_add_partial : forall s es,
  Inv s ->
  match insert_all s es with
  | TErr e => i_add true s es = TErr e /\ s_compute s (OAdd true es) = TErr e
  | TOk s1 =>
      (acyclic (graph_of s1) ->
       exists si ss, i_add true s es = TOk si /\ s_compute s (OAdd true es) = TOk ss /\ agree si ss)
      /\ (i_add true s es = TErr ECycle -> s_compute s (OAdd true es) = TErr ECycle)
      /\ (forall t, i_add_loop s [] es = TOk (s1, t) ->
          forall x, reach (graph_of s1) x x -> In x (touch_descendants t s1))
  end.
Proof.
  intros s es HI. destruct (insert_all s es) as [s1|e] eqn:E.
  - destruct (inc_refines_add s es s1 HI E) as [A B]. split; [exact A | split; [exact B|]].
    intros t EL. exact (add_cycles_touched s es s1 t HI EL).
  - apply inc_add_error; exact E.
Qed.
Print Assumptions c04_inc_refines_add_partial.

(* Steps (a), (b), (c) for remove_entities(ComputeNow) of ONE uid (present or absent)
   from any store with Inv: both layers succeed (no cycle can arise), with equal direct parents and equal
   ancestor sets — stripping removes nothing that is not recomputed, untouched entities stay complete, an
   ancestor reachable both through the removed entity and through a sibling is kept/recovered.
   MISSING: batches of several uids (the code strips against partially stripped intermediate states). *)
Theorem c04_inc_refines_remove_partial : forall s u,
  Inv s ->
  exists si ss, i_remove true s [u] = TOk si /\ s_compute s (ORemove true [u]) = TOk ss /\ agree si ss.
Proof. exact inc_refines_remove_one. Qed.
Print Assumptions c04_inc_refines_remove_partial.

(* Steps (a), (b) for upsert_entities(ComputeNow) of ONE entity (present: its
   descendants are stripped of the old entity's ancestors; absent: as add), any store with Inv:
   edited graph acyclic => both layers succeed with equal parents and equal ancestor sets (an ancestor
   justified only through the replaced entity's old parents disappears, one also justified by another path
   is recomputed); the incremental layer reports Cycle => the spec layer reports Cycle.
   MISSING: batches of several entities; rejection by the coded DFS on a cyclic edited graph. *)
Theorem c04_inc_refines_upsert_partial : forall s e,
  Inv s ->
  (acyclic (graph_of (upd_over s e)) ->
   exists si ss, i_upsert true s [e] = TOk si /\ s_compute s (OUpsert true [e]) = TOk ss /\ agree si ss)
  /\ (i_upsert true s [e] = TErr ECycle -> s_compute s (OUpsert true [e]) = TErr ECycle).
Proof.
  intros s e HI. destruct (find (fst e) s) as [old|] eqn:Fu.
  - destruct e as [u ps]. rewrite (up1_spec_graph s u ps). exact (up1_refines s u ps old HI Fu).
  - destruct (upsert_absent_is_add s e Fu) as [E1 [E2 E3]]. rewrite E1, E2.
    exact (inc_refines_add s [e] _ HI E3).
Qed.
Print Assumptions c04_inc_refines_upsert_partial.

(* diamond 0 -> {1,2} -> 3 -> 4, then remove 1 (one of two paths): 3 and 4 stay ancestors of 0;
   then remove 2 (the only remaining path): nothing survives *)
Definition ex_ops : list op :=
  [ OFrom true [(0, [1; 2]); (1, [3]); (2, [3]); (3, [4])]; ORemove true [1] ].
Example ex_history_one_of_two_paths :
  option_map (fun n => (n_parents n, n_indirect n)) (find 0 (run_ops s_op ex_ops)) = Some ([2], [4; 3])
  /\ Forall (fun o => op_compute o = true) ex_ops.
Proof. split; [vm_compute; reflexivity | repeat constructor]. Qed.
Example ex_history_only_path :
  option_map ancestors (find 0 (run_ops s_op (ex_ops ++ [ORemove true [2]]))) = Some [].
Proof. vm_compute. reflexivity. Qed.
Example ex_layers_agree : run_ops i_op (ex_ops ++ [ORemove true [2]]) = run_ops s_op (ex_ops ++ [ORemove true [2]]).
Proof. vm_compute. reflexivity. Qed.
(* a cycle of length 3 closed by an upsert is rejected, in both layers *)
Example ex_cycle_rejected :
  s_op (run_ops s_op [OFrom true [(0, [1]); (1, [2]); (2, [])]]) (OUpsert true [(2, [0])]) = TErr ECycle
  /\ i_op (run_ops i_op [OFrom true [(0, [1]); (1, [2]); (2, [])]]) (OUpsert true [(2, [0])]) = TErr ECycle.
Proof. split; vm_compute; reflexivity. Qed.
Example ex_closure_cyclic : closure [(0, [1]); (1, [2]); (2, [0; 5])] 0 = Some [5; 0; 2; 1].
Proof. vm_compute. reflexivity. Qed.
(* enforce: closed input accepted, non-closed input rejected, self-loop rejected *)
Example ex_enforce :
  i_from false [(0, [1; 2]); (1, [2])] = TOk [(0, mkNode [1; 2] []); (1, mkNode [2] [])]
  /\ i_from false [(0, [1]); (1, [2])] = TErr EMissingEdge
  /\ i_from false [(0, [0])] = TErr ECycle.
Proof. repeat split; vm_compute; reflexivity. Qed.
Example ex_queries :
  let s := run_ops s_op ex_ops in
  (q_in s 0 0, q_is_ancestor_of s 0 0, q_is_ancestor_of s 9 9, q_in s 0 4, q_is_ancestor_of s 4 0, q_in s 0 1)
  = (true, true, true, true, true, false).
Proof. vm_compute. reflexivity. Qed.

(* hypotheses of c04_repair_correct / c04_inc_refines_* are satisfiable: the diamond store has Inv (c04_history),
   adding 5 -> 0 and 4 -> 6 (4 was a dangling parent) keeps the graph acyclic and both layers agree *)
Definition agree_b (r1 r2 : tres store) (ks : list uid) : bool :=
  match r1, r2 with
  | TOk a, TOk b =>
      forallb (fun k => match find k a, find k b with
                        | Some x, Some y => set_eqb (ancestors x) (ancestors y) && set_eqb (n_parents x) (n_parents y)
                        | None, None => true
                        | _, _ => false
                        end) ks
  | _, _ => false
  end.
Example ex_inc_add :
  let s := run_ops s_op ex_ops in
  agree_b (i_add true s [(5, [0]); (4, [6])]) (s_compute s (OAdd true [(5, [0]); (4, [6])])) [0; 1; 2; 3; 4; 5; 6] = true
  /\ option_map (fun n => set_eqb (ancestors n) [2; 3; 4; 6])
       (find 0 (match i_add true s [(5, [0]); (4, [6])] with TOk x => x | TErr _ => [] end)) = Some true.
Proof. split; vm_compute; reflexivity. Qed.
Example ex_inc_remove :
  let s := run_ops s_op [OFrom true [(0, [1; 2]); (1, [3]); (2, [3]); (3, [4])]] in
  agree_b (i_remove true s [1]) (s_compute s (ORemove true [1])) [0; 1; 2; 3; 4] = true.
Proof. vm_compute. reflexivity. Qed.
Example ex_inc_upsert :
  let s := run_ops s_op [OFrom true [(0, [1; 2]); (1, [3]); (2, [3]); (3, [4])]] in
  agree_b (i_upsert true s [(1, [5])]) (s_compute s (OUpsert true [(1, [5])])) [0; 1; 2; 3; 4; 5] = true
  /\ i_upsert true s [(3, [0])] = TErr ECycle.
Proof. split; vm_compute; reflexivity. Qed.

(* upsert_entities applies only the latest version of each uid of its batch (afe0e04; TC.latest_versions, used by both
   layers): uid by uid this yields the same entity records — hence the same direct-parent links — as applying every
   version in turn; the de-duplication only avoids stripping against intermediate, not yet closed versions. *)
Theorem c04_upsert_latest : forall (es : list ent) (s : store) (u : uid),
  find u (fold_left upd_over (latest_versions es) s) = find u (fold_left upd_over es s).
Proof.
  induction es as [|e es IH]; intros s u; cbn [latest_versions fold_left]; [reflexivity|].
  destruct (existsb (fun e' => N.eqb (fst e') (fst e)) es) eqn:E; [|apply IH].
  rewrite IH. apply fold_upd_over_agree. intros v Hv.
  symmetry. apply find_upd_over_other. intros ->. apply Hv.
  apply existsb_exists in E as [e' [Hin Heq]]. apply N.eqb_eq in Heq. rewrite <- Heq. apply in_map. exact Hin.
Qed.
Print Assumptions c04_upsert_latest.
