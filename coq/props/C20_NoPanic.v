(* C20 — no panics: the proof part.
   Gallina functions are total, so "the model does not panic" would be vacuous.  model/NoPanic.v therefore
   transcribes, at INDEX level, Rust functions whose panic freedom rests on an invariant asserted only in prose
   (`#[expect(clippy::indexing_slicing, reason = "...")]`), and makes every panicking primitive explicit: a slice
   index, a slice store and an unsigned subtraction (overflow checks are on in this workspace's release profile)
   yield `Panic site` exactly where the Rust operation panics.  The theorems below say that NO input reaches a
   Panic outcome (and, where a proven functional model exists, that the checked code computes it).
   The transfer to /repo is the correspondence of the C20 check: the same definitions are run (extracted, and by
   vm_compute on a sample) against fuzzy_match::fuzzy_search_limited, Pattern::wildcard_match, ip(..).isInRange(..)
   and the display of JSON policies on generated inputs; a panic of the implementation where the model returns a
   value is a VIOLATION with the input as replay.

   This is a PARTIAL treatment of C20 by nature: the sites below are a few of the `#[expect(clippy::...)]` escapes
   and `panic!()` calls; everything else of C20 is runtime exploration and is labelled as such in the evidence. *)
From Cedar Require Import NoPanicUtf8 NoPanicProofs NoPanicLike NoPanicLev PolicySet PolicySetWF NoPanicPolicySet.

(* fuzzy_match.rs levenshtein_distance: every matrix[j][i], w1[i-1], w2[j-1] is in bounds *)
Theorem c20_levenshtein_no_panic : forall w1 w2 : str, exists n, levenshtein w1 w2 = POk n.
Proof. intros w1 w2. eexists. apply levenshtein_refines. Qed.
Print Assumptions c20_levenshtein_no_panic.

(* ... and the matrix loops compute the Wagner-Fischer recurrence lev_rec *)
Theorem c20_levenshtein_refines : forall w1 w2 : str,
  levenshtein w1 w2 = POk (lev_rec w1 w2 (List.length w2) (List.length w1)).
Proof. exact levenshtein_refines. Qed.
Print Assumptions c20_levenshtein_refines.

(* ... which puts a word at distance 0 from itself and |w| from the empty word *)
Theorem c20_levenshtein_self : forall w : str,
  levenshtein w w = POk 0%N /\ levenshtein w [] = POk (N.of_nat (List.length w)).
Proof.
  intros w. rewrite !levenshtein_refines. split; [f_equal; apply lev_rec_diag, le_n | reflexivity].
Qed.
Print Assumptions c20_levenshtein_self.

(* fuzzy_search_limited (any key, candidate list, threshold) returns *)
Theorem c20_fuzzy_search_no_panic : forall (key : str) (lst : list str) (maxd : option N),
  exists o, fuzzy_search_limited key lst maxd = POk o.
Proof.
  intros key lst maxd. unfold fuzzy_search_limited.
  destruct key as [|c key]; [eauto|]. destruct lst as [|w lst]; [eauto|].
  destruct (fuzzy_fold_no_panic (c :: key) (w :: lst) (usize_max, [])) as [t ->]. cbn [pbind].
  destruct maxd; eauto.
Qed.
Print Assumptions c20_fuzzy_search_no_panic.

(* ... and a suggestion is one of the candidates (or the fold's initial "") *)
Theorem c20_fuzzy_search_candidate : forall (key : str) (lst : list str) (maxd : option N) (w : str),
  fuzzy_search_limited key lst maxd = POk (Some w) -> In w lst \/ w = [].
Proof. exact fuzzy_search_candidate. Qed.
Print Assumptions c20_fuzzy_search_candidate.

(* ... at minimal distance among all candidates *)
Theorem c20_fuzzy_fold_minimal : forall (key : str) (lst : list str) (acc t : N * str),
  fuzzy_fold key lst acc = POk t ->
  (forall w', In w' lst -> exists d', levenshtein key w' = POk d' /\ (fst t <= d')%N) /\
  (fst t <= fst acc)%N /\
  (t = acc \/ (In (snd t) lst /\ levenshtein key (snd t) = POk (fst t))).
Proof. exact fuzzy_fold_minimal. Qed.
Print Assumptions c20_fuzzy_fold_minimal.

(* Pattern::wildcard_match: pattern[j], text[i], pattern_len - 1 never panic *)
Theorem c20_wildcard_no_panic : forall (pat : pattern) (text : str), exists o, wildcard_indexed pat text = POk o.
Proof. intros pat text. eexists. apply wildcard_indexed_refines. Qed.
Print Assumptions c20_wildcard_no_panic.

(* ... and the index-level loop computes the declarative matcher `wildcard` of C02 *)
Theorem c20_wildcard_refines : forall (pat : pattern) (text : str),
  wildcard_indexed pat text = POk (Some (wildcard pat text)).
Proof. exact wildcard_indexed_refines. Qed.
Print Assumptions c20_wildcard_refines.

(* IPAddr::is_in_range on parsed addresses: PREFIX_MAX_LEN - prefix cannot underflow, and the checked
   code computes C07's ip_is_in_range *)
Theorem c20_ip_in_range_no_panic : forall s1 s2 : str,
  ip_in_range_strs s1 s2 =
  POk (match ip_parse s1, ip_parse s2 with Some a, Some b => Some (ip_is_in_range a b) | _, _ => None end).
Proof. exact ip_in_range_strs_no_panic. Qed.
Print Assumptions c20_ip_in_range_no_panic.

(* ipaddr.rs contains_at_least_two, byte level: the slice offset is a char boundary for every string
   (the source has a Kani proof for length <= 6 only) *)
Theorem c20_contains_two_no_panic : forall (s : str) (c : N),
  contains_at_least_two_checked s c = POk (contains_at_least_two s c).
Proof. exact contains_at_least_two_checked_ok. Qed.
Print Assumptions c20_contains_two_no_panic.

(* ip(s1).isInRange(ip(s2)) from strings: no panic site on the way is reached *)
Theorem c20_ip_strings_no_panic : forall s1 s2 : str,
  ip_in_range_strs_checked s1 s2 =
  POk (match ip_parse s1, ip_parse s2 with Some a, Some b => Some (ip_is_in_range a b) | _, _ => None end).
Proof.
  intros s1 s2. unfold ip_in_range_strs_checked. rewrite !ip_parse_checked_ok. cbn [pbind].
  apply ip_in_range_strs_no_panic.
Qed.
Print Assumptions c20_ip_strings_no_panic.

(* the parser establishes prefix <= width, the invariant the subtraction relies on *)
Theorem c20_ip_prefix_bound : forall (s : str) (a : ipaddr),
  ip_parse s = Some a -> (ip_prefix a <= ip_width (ip_v6 a))%N.
Proof. exact ip_parse_prefix_bound. Qed.
Print Assumptions c20_ip_prefix_bound.

(* ... and without it the subtraction would panic: the invariant is not vacuous *)
Theorem c20_ip_prefix_needed : forall (v6 : bool) (p : N),
  (ip_width v6 < p)%N -> no_panic (netmask_checked v6 p) = false.
Proof. exact netmask_checked_panics. Qed.
Print Assumptions c20_ip_prefix_needed.

(* est display of {"__extn":{"fn","args"}}: no panic for any function and arity *)
Theorem c20_display_extn_no_panic : forall (fn : str) (args : list str), exists s, display_extn_multi fn args = POk s.
Proof.
  intros fn args. unfold display_extn_multi.
  destruct (extn_layout_no_panic (existsb (str_eqb fn) method_style_fns) args) as [l ->]. cbn [pbind]. eauto.
Qed.
Print Assumptions c20_display_extn_no_panic.

(* the code before fix 3dd4acc panicked exactly on a method-style call with no arguments (finding F-b),
   and the repaired code agrees with it elsewhere *)
Theorem c20_display_extn_old_refuted :
  (forall (ms : bool) (args : list str),
     no_panic (extn_multi_layout_old ms args) = false <-> ms = true /\ args = []) /\
  (forall (ms : bool) (args : list str) l,
     extn_multi_layout_old ms args = POk l -> extn_multi_layout ms args = POk l).
Proof. exact (conj extn_layout_old_panics_iff extn_layout_agrees_with_old). Qed.
Print Assumptions c20_display_extn_old_refuted.

(* The panic!() sites of the policy-set bookkeeping, PolicySet::{link, unlink, remove_template}
   ("template_to_links_map missing a template key", "policy id exists in asts but not ests", ...),
   modelled in model/PolicySet.v as the outcome `OErr EPanic` and tied to the code by C08's check:
   unreachable under C08's well-formedness invariant ... *)
Theorem c20_policyset_core_no_panic : forall s i, WF s ->
  ps_unlink s i <> OErr EPanic /\ ps_remove_template s i <> OErr EPanic.
Proof. exact (fun s i W => conj (ps_unlink_no_panic s i W) (ps_remove_template_no_panic s i W)). Qed.
Print Assumptions c20_policyset_core_no_panic.

(* ... hence at every step of every (merge-free) history of cedar_policy::PolicySet operations from the empty set.
   (Without the invariant the site IS reachable: c08_wf_refuted_without_it / finding C08:link-to-static-policy-body.) *)
Theorem c20_policyset_history_no_panic : forall pre o,
  Forall no_merge pre -> no_merge o ->
  fst (snd (api_step (run_ops api_step pre empty_h) o)) <> OErr EPanic.
Proof. exact api_history_no_panic. Qed.
Print Assumptions c20_policyset_history_no_panic.

(* non-vacuity: concrete runs through every site *)
Example c20_examples :
  levenshtein (s2str "kitten") (s2str "sitting") = POk 3%N /\
  fuzzy_search_limited (s2str "princpal") [s2str "prince"; s2str "principal"] None = POk (Some (s2str "principal")) /\
  wildcard_indexed [PChar 97; PStar; PChar 98] (s2str "axxb") = POk (Some true) /\
  ip_in_range_strs (s2str "10.1.2.3") (s2str "0.0.0.0/0") = POk (Some true) /\
  display_extn_multi (s2str "isIpv4") [] = POk (s2str "isIpv4()") /\
  extn_multi_layout_old true (@nil str) = Panic "display_cedarvaluejson: args[0]"%string.
Proof. vm_compute. repeat split. Qed.
