(* C03, strict-accepted => permissive-accepted: both modes are one function and strict mode only adds checks:
   enforce_strict_equality on == / contains*, and the stricter lub, which on the boolean-rooted `if` branches of
   the fragment coincides with the permissive one. *)
From Cedar Require Import Typecheck TypecheckRules TypecheckIf TypecheckMain.

(* every arm of `tc` fails when the answer for a subterm it needs fails, so `below` passes from the subterms to
   the whole *)
Definition below (r r' : tres) : Prop := forall x, r = Some x -> r' = Some x.

Lemma below_refl r : below r r.
Proof. intros x H. exact H. Qed.

Lemma below_bind r r' (K K' : ty * caps -> tres) :
  below r r' -> (forall p, below (K p) (K' p)) ->
  below (match r with Some p => K p | None => None end) (match r' with Some p => K' p | None => None end).
Proof.
  intros Hr HK. destruct r as [p|]; [|discriminate]. rewrite (Hr p eq_refl). apply HK.
Qed.

Lemma below_expect r r' l : below r r' -> below (expect r l) (expect r' l).
Proof. intros Hr. destruct r as [p|]; [|discriminate]. rewrite (Hr p eq_refl). apply below_refl. Qed.

Lemma below_expected r r' l (K : ty * caps -> tres) :
  below r r' ->
  below (match expect r l with Some p => K p | None => None end) (match expect r' l with Some p => K p | None => None end).
Proof. intros Hr. apply below_bind; [apply below_expect, Hr|intros p; apply below_refl]. Qed.

Lemma below_guard (c : bool) x : below (if c then Some x else None) (Some x).
Proof. destruct c; [apply below_refl|discriminate]. Qed.

Lemma lub_bshape_mode a b t : bshape a -> bshape b -> lub Strict a b = Some t -> lub Permissive a b = Some t.
Proof.
  intros [[xa ->]| ->] [[xb ->]| ->] H; try destruct xa; try destruct xb; cbn in H |- *; exact H.
Qed.

Lemma and_rule_below ta ca rb rb' : below rb rb' -> below (and_rule ta ca rb) (and_rule ta ca rb').
Proof.
  intros Hb. unfold and_rule.
  destruct ta as [|[| |]| | | | | |];
    first [apply below_expected, Hb | apply below_refl].
Qed.

Lemma or_rule_below ta ca rb rb' : below rb rb' -> below (or_rule ta ca rb) (or_rule ta ca rb').
Proof.
  intros Hb. unfold or_rule.
  destruct ta as [|[| |]| | | | | |];
    first [apply below_expected, Hb | apply below_refl].
Qed.

Lemma if_rule_below tcnd ccnd rx rx' ry ry' :
  below rx rx' -> below ry ry' ->
  (forall tx cx t_y cy, rx = Some (tx, cx) -> ry = Some (t_y, cy) -> bshape tx /\ bshape t_y) ->
  below (if_rule Strict tcnd ccnd rx ry) (if_rule Permissive tcnd ccnd rx' ry').
Proof.
  intros Hx Hy Hb.
  assert (Hlub : below (if_rule Strict (TBool BAny) ccnd rx ry) (if_rule Permissive (TBool BAny) ccnd rx' ry')).
  { cbn [if_rule]. destruct rx as [[tx cx]|]; [|discriminate]. destruct ry as [[t_y cy]|]; [|discriminate].
    rewrite (Hx _ eq_refl), (Hy _ eq_refl). destruct (Hb _ _ _ _ eq_refl eq_refl) as [Bx By].
    destruct (lub Strict tx t_y) as [t|] eqn:El; [|discriminate].
    rewrite (lub_bshape_mode _ _ _ Bx By El). apply below_refl. }
  destruct tcnd as [|[| |]| | | | | |]; try exact Hlub; cbn [if_rule].
  - apply below_bind; [exact Hx|intros ?; apply below_refl].
  - exact Hy.
Qed.

Section Modes.
  Variable sch : schema.
  Variable env : reqenv.

  Definition same_in_permissive (e : expr) : Prop :=
    forall cs, below (tc Strict sch env cs e) (tc Permissive sch env cs e).

  Theorem strict_in_permissive_fragment : forall e, in_fragment e = true -> same_in_permissive e.
  Proof.
    apply in_fragment_ind.
    - intros p cs. apply below_refl.
    - intros v cs. apply below_refl.
    - intros c x y Hbx Hby IHc IHx IHy cs.
      rewrite !tc_if. apply below_bind; [apply below_expect, IHc|]. intros [tcnd ccnd].
      apply if_rule_below; [apply IHx|apply IHy|]. intros tx cx t_y cy Ex Ey.
      split; [exact (boolish'_typed _ _ _ _ Hbx _ _ _ Ex)|exact (boolish'_typed _ _ _ _ Hby _ _ _ Ey)].
    - intros a b IHa IHb cs.
      rewrite !tc_and. apply below_bind; [apply below_expect, IHa|]. intros [ta ca]. apply and_rule_below, IHb.
    - intros a b IHa IHb cs.
      rewrite !tc_or. apply below_bind; [apply below_expect, IHa|]. intros [ta ca]. apply or_rule_below, IHb.
    - intros op a IHa cs. destruct op; [rewrite !tc_not|rewrite !tc_neg|rewrite !tc_isempty];
        apply below_expected, IHa.
    - intros a b IHa IHb cs. rewrite !tc_eq. apply below_bind; [apply IHa|]. intros [ta ca].
      apply below_bind; [apply IHb|]. intros [tb cb]. apply below_guard.
    - intros op a b Hop IHa IHb cs. rewrite !tc_cmp by exact Hop.
      apply below_bind; [apply IHa|]. intros [ta ca]. apply below_bind; [apply IHb|]. intros ?. apply below_refl.
    - intros op a b Hop IHa IHb cs. rewrite !tc_arith by exact Hop.
      apply below_bind; [apply below_expect, IHa|]. intros ?. apply below_expected, IHb.
    - intros a b IHa IHb cs. rewrite !tc_contains. apply below_bind; [apply below_expect, IHa|]. intros [ta ca].
      apply below_bind; [apply IHb|]. intros [tb cb]. cbn [is_strict].
      destruct ta as [| | | |[te|]| | |]; try apply below_refl. apply below_guard.
    - intros op a b Hop IHa IHb cs. rewrite !tc_contains_aa by exact Hop.
      apply below_bind; [apply below_expect, IHa|]. intros [ta ca].
      apply below_bind; [apply below_expect, IHb|]. intros [tb cb]. apply below_guard.
    - intros x a _ IHx cs. rewrite !tc_getattr. apply below_expected, IHx.
    - intros x a _ IHx cs. rewrite !tc_hasattr. apply below_expected, IHx.
    - intros x p IHx cs. rewrite !tc_like. apply below_expected, IHx.
    - intros x t IHx cs. rewrite !tc_is. apply below_expected, IHx.
  Qed.
End Modes.
