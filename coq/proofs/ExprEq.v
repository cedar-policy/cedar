(* `expr_eqb`, the shape equality of capabilities (ExprShapeOnly), decides equality of expressions;
   membership / intersection of capability sets in terms of `In`. *)
From Cedar Require Import Typecheck ValueProofs ExprInd.

Lemma var_eqb_eq a b : var_eqb a b = true -> a = b.
Proof. destruct a, b; cbn; congruence. Qed.
Lemma slot_eqb_eq a b : slot_eqb a b = true -> a = b.
Proof. destruct a, b; cbn; congruence. Qed.
Lemma unop_eqb_eq a b : unop_eqb a b = true -> a = b.
Proof. destruct a, b; cbn; congruence. Qed.
Lemma binop_eqb_eq a b : binop_eqb a b = true -> a = b.
Proof. destruct a, b; cbn; congruence. Qed.
Lemma patelem_eqb_eq a b : patelem_eqb a b = true -> a = b.
Proof. destruct a, b; cbn; try congruence. intros H. apply N.eqb_eq in H. congruence. Qed.
Lemma pattern_eqb_eq a : forall b, pattern_eqb a b = true -> a = b.
Proof.
  induction a as [|x a IH]; destruct b; cbn; try congruence.
  intros H. apply andb_prop in H. destruct H as [H1 H2]. apply patelem_eqb_eq in H1. apply IH in H2. congruence.
Qed.
Lemma rtype_eqb_eq a b : rtype_eqb a b = true -> a = b.
Proof.
  destruct a, b; cbn; try congruence; intros H; apply name_eqb_eq in H; congruence.
Qed.
Lemma orty_eqb_eq a b : orty_eqb a b = true -> a = b.
Proof. destruct a, b; cbn; try congruence. intros H. apply rtype_eqb_eq in H. congruence. Qed.

Lemma expr_list_eq xs :
  Forall (fun x => forall y, expr_eqb x y = true -> x = y) xs ->
  forall ys, expr_eqb (SetE xs) (SetE ys) = true -> xs = ys.
Proof.
  intros HF. induction HF as [|x xs Hx HF IH]; destruct ys as [|y ys]; cbn; try congruence.
  intros H. apply andb_prop in H. destruct H as [H1 H2].
  apply Hx in H1. assert (H3 : expr_eqb (SetE xs) (SetE ys) = true) by exact H2.
  apply IH in H3. congruence.
Qed.

Lemma expr_rec_eq xs :
  Forall (fun kv : str * expr => forall y, expr_eqb (snd kv) y = true -> snd kv = y) xs ->
  forall ys, expr_eqb (RecordE xs) (RecordE ys) = true -> xs = ys.
Proof.
  intros HF. induction HF as [|[k x] xs Hx HF IH]; destruct ys as [|[k' y] ys]; cbn; try congruence.
  intros H. apply andb_prop in H. destruct H as [H H2]. apply andb_prop in H. destruct H as [H0 H1].
  apply str_eqb_eq in H0. cbn in Hx. apply Hx in H1.
  assert (H3 : expr_eqb (RecordE xs) (RecordE ys) = true) by exact H2.
  apply IH in H3. congruence.
Qed.

#[local] Hint Resolve var_eqb_eq slot_eqb_eq orty_eqb_eq unop_eqb_eq binop_eqb_eq pattern_eqb_eq expr_list_eq expr_rec_eq : eqb.
#[local] Hint Resolve -> prim_eqb_eq str_eqb_eq name_eqb_eq : eqb.

Theorem expr_eqb_eq a : forall b, expr_eqb a b = true -> a = b.
Proof.
  induction a using expr_ind'; intros b0; destruct b0; cbn [expr_eqb]; try discriminate.
  all: intros Heq.
  all: repeat (apply andb_prop in Heq; destruct Heq as [Heq ?]).
  all: f_equal; auto with eqb.
Qed.

Lemma cap_eqb_eq a b : cap_eqb a b = true -> a = b.
Proof.
  destruct a as [k1 o1 w1], b as [k2 o2 w2]. unfold cap_eqb. cbn [c_kind c_on c_what].
  intros H. apply andb_prop in H. destruct H as [H H3]. apply andb_prop in H. destruct H as [H1 H2].
  apply expr_eqb_eq in H2. apply expr_eqb_eq in H3. destruct k1, k2; try discriminate; congruence.
Qed.

Lemma caps_mem_In c cs : caps_mem c cs = true -> In c cs.
Proof.
  unfold caps_mem. intros H. apply existsb_exists in H. destruct H as (c' & Hin & He).
  apply cap_eqb_eq in He. subst. exact Hin.
Qed.

Lemma caps_inter_incl_l a b : incl (caps_inter a b) a.
Proof. intros c H. apply filter_In in H. exact (proj1 H). Qed.

Lemma caps_inter_incl_r a b : incl (caps_inter a b) b.
Proof. intros c H. apply filter_In in H. apply caps_mem_In. exact (proj2 H). Qed.
