(* C03: the subtype relation of types.rs is sound over all types (nested induction). *)
From Cedar Require Import Typecheck BaseFacts ConformProofs TypecheckProofs.

(* the attribute loop of Attributes::is_subtype as a named function (the same fix as inside `subty`) *)
Fixpoint attrs_sub_go (m : vmode) (ys : attrs_ty) (l : attrs_ty) : bool :=
  match l with
  | [] => true
  | (k, (tx, rx)) :: l' =>
      match lookup k ys with
      | Some (t_y, ry) => (if is_strict m then Bool.eqb rx ry else rx || negb ry) && subty m tx t_y
      | None => true
      end && attrs_sub_go m ys l'
  end.

Lemma subty_record m xs ox ys oy :
  subty m (TRecord xs ox) (TRecord ys oy) =
  (negb ox || oy) &&
  ((oy && negb (is_strict m) && (keys_subset ys xs && attrs_sub_go m ys xs)) ||
   (keys_subset xs ys && (keys_subset ys xs && attrs_sub_go m ys xs))).
Proof.
  cbn [subty].
  assert (E : forall l, (fix go (l : attrs_ty) : bool :=
            match l with
            | [] => true
            | (k, (tx, rx)) :: l' =>
                match lookup k ys with
                | Some (t_y, ry) => (if is_strict m then Bool.eqb rx ry else rx || negb ry) && subty m tx t_y
                | None => true
                end && go l'
            end) l = attrs_sub_go m ys l).
  { induction l as [|[k [tx rx]] l IH]; [reflexivity|]. cbn [attrs_sub_go]. rewrite <- IH. reflexivity. }
  rewrite !E. reflexivity.
Qed.

Lemma attrs_sub_go_spec m ys l :
  attrs_sub_go m ys l = true ->
  forall k tx rx, In (k, (tx, rx)) l ->
  forall t_y ry, lookup k ys = Some (t_y, ry) ->
  (if is_strict m then Bool.eqb rx ry else rx || negb ry) = true /\ subty m tx t_y = true.
Proof.
  induction l as [|[k0 [tx0 rx0]] l IH]; cbn [attrs_sub_go]; intros H k tx rx Hin t_y ry Hl; [destruct Hin|].
  apply andb_prop in H. destruct H as [H1 H2]. destruct Hin as [Heq|Hin].
  - inversion Heq; subst. rewrite Hl in H1. apply andb_prop in H1. exact H1.
  - eapply IH; eauto.
Qed.

Lemma keys_subset_has {A B} (xs : list (str * A)) (ys : list (str * B)) k v :
  keys_subset xs ys = true -> In (k, v) xs -> has_key k ys = true.
Proof.
  unfold keys_subset. intros H Hin. rewrite forallb_forall in H. exact (H _ Hin).
Qed.

(* the Forall hypothesis is the nested IH, on the attribute types of the subtype *)
Lemma subty_record_sound m attrs o ys oy v :
  Forall (fun a : str * (ty * bool) =>
            forall m b v, wf_ty b = true -> subty m (fst (snd a)) b = true -> TypeConforms v (fst (snd a)) -> TypeConforms v b)
         attrs ->
  wf_ty (TRecord ys oy) = true -> subty m (TRecord attrs o) (TRecord ys oy) = true ->
  TypeConforms v (TRecord attrs o) -> TypeConforms v (TRecord ys oy).
Proof.
  intros H Hwf Hs Hv.
  rewrite subty_record in Hs. apply andb_prop in Hs. destruct Hs as [Hopen Hs].
  assert (Hsub : keys_subset ys attrs = true /\ attrs_sub_go m ys attrs = true /\ (oy = false -> keys_subset attrs ys = true)).
  { apply orb_prop in Hs. destruct Hs as [Hs|Hs].
    - apply andb_prop in Hs. destruct Hs as [Hs1 Hs2]. apply andb_prop in Hs2. destruct Hs2 as [K G].
      apply andb_prop in Hs1. destruct Hs1 as [Hoy _]. split; [exact K|]. split; [exact G|].
      intros ->. discriminate Hoy.
    - apply andb_prop in Hs. destruct Hs as [K' Hs2]. apply andb_prop in Hs2. destruct Hs2 as [K G]. auto. }
  destruct Hsub as (K & G & Kc).
  destruct (record_value _ _ _ Hv) as [kvs ->]. apply TypeConforms_record in Hv as (R1 & R2 & R3).
  rewrite wf_ty_record in Hwf. apply andb_prop in Hwf. destruct Hwf as [Hnd Hwfs]. rewrite forallb_forall in Hwfs.
  apply TC_record.
  - intros k t Hin.
    pose proof (nodup_In_lookup _ _ _ Hnd Hin) as Hl.
    pose proof (keys_subset_has _ _ _ _ K Hin) as Hk. apply has_key_lookup in Hk. destruct Hk as [[tx rx] Hx].
    destruct (attrs_sub_go_spec _ _ _ G _ _ _ (lookup_In _ _ _ Hx) _ _ Hl) as [Hq _].
    assert (rx = true) by (destruct (is_strict m); destruct rx; cbn in Hq; congruence). subst rx.
    exact (R1 _ _ (lookup_In _ _ _ Hx)).
  - intros k v Hin t r Hl.
    pose proof (keys_subset_has _ _ _ _ K (lookup_In _ _ _ Hl)) as Hk.
    apply has_key_lookup in Hk. destruct Hk as [[tx rx] Hx].
    destruct (attrs_sub_go_spec _ _ _ G _ _ _ (lookup_In _ _ _ Hx) _ _ Hl) as [_ Hst].
    rewrite Forall_forall in H. pose proof (H _ (lookup_In _ _ _ Hx)) as IHt. cbn [fst snd] in IHt.
    eapply IHt; [exact (Hwfs _ (lookup_In _ _ _ Hl))|exact Hst|].
    exact (R2 _ _ Hin _ _ Hx).
  - intros -> k v Hin.
    assert (o = false) by (destruct o; [cbn in Hopen; discriminate Hopen|reflexivity]). subst o.
    pose proof (R3 eq_refl _ _ Hin) as Hk. apply has_key_lookup in Hk. destruct Hk as [p Hx].
    exact (keys_subset_has _ _ _ _ (Kc eq_refl) (lookup_In _ _ _ Hx)).
Qed.

Theorem subty_sound a :
  forall m b v, wf_ty b = true -> subty m a b = true -> TypeConforms v a -> TypeConforms v b.
Proof.
  induction a as [|b| | | |e IHa|k|attrs o H|n] using ty_ind'; intros m b0 v Hwf Hs Hv.
  - exfalso. eapply conf_never; eauto.
  - cbn [subty] in Hs. destruct b0 as [|y| | | | | |]; try discriminate Hs.
    destruct (conf_bool _ _ Hv) as (bv & -> & Hb). apply may_conf.
    destruct b; destruct y; cbn in Hs; try discriminate Hs; subst; reflexivity.
  - cbn [subty] in Hs. destruct b0; try discriminate Hs. exact Hv.
  - cbn [subty] in Hs. destruct b0; try discriminate Hs. exact Hv.
  - cbn [subty] in Hs. destruct b0 as [| | | |[e|]| | |]; try discriminate Hs. inversion Hv; subst. constructor.
  - cbn [subty] in Hs. destruct b0 as [| | | |[e'|]| | |]; try discriminate Hs.
    + inversion Hv; subst. constructor. intros x Hx. apply (IHa m e' x Hwf Hs). auto.
    + inversion Hv; subst. constructor.
  - cbn [subty] in Hs. destruct b0 as [| | | | |k'| |]; try discriminate Hs.
    destruct k as [|x]; destruct k' as [|y]; cbn [entkind_sub] in Hs; try discriminate Hs.
    + exact Hv.
    + inversion Hv; subst. constructor.
    + inversion Hv; subst. constructor.
      assert (Hf : forallb (lub_contains y) x = true).
      { destruct (is_strict m); [unfold lub_eqb in Hs; apply andb_prop in Hs; exact (proj1 Hs)|exact Hs]. }
      rewrite forallb_forall in Hf. apply lub_contains_In. apply Hf. assumption.
  - destruct b0 as [| | | | | |ys oy|]; try (cbn [subty] in Hs; discriminate Hs).
    exact (subty_record_sound m attrs o ys oy v H Hwf Hs Hv).
  - cbn [subty] in Hs. destruct b0; try discriminate Hs. apply name_eqb_eq in Hs. subst. exact Hv.
Qed.
