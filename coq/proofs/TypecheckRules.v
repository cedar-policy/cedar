(* What `tc` computes on each form of expression of the C03 fragment, as equations that hold by unfolding;
   the proofs about `tc` rewrite with these and never unfold the fixpoint. *)
From Cedar Require Import Typecheck.

Lemma expect_inv r l t c :
  expect r l = Some (t, c) -> r = Some (t, c) /\ existsb (subty Permissive t) l = true.
Proof.
  unfold expect. destruct r as [[t0 c0]|]; [|discriminate].
  destruct (existsb (subty Permissive t0) l) eqn:E; [|discriminate].
  intros H; inversion H; subst. auto.
Qed.

Ltac get_expect H t c E Hs :=
  match type of H with context [expect ?r ?l] =>
    destruct (expect r l) as [[t c]|] eqn:E; [apply expect_inv in E; destruct E as [E Hs]|discriminate]
  end.

Lemma expect_then_inv r l (K : tres) res :
  match expect r l with Some _ => K | None => None end = Some res ->
  K = Some res /\ exists t c, r = Some (t, c) /\ existsb (subty Permissive t) l = true.
Proof.
  destruct (expect r l) as [[t c]|] eqn:E; [|discriminate]. apply expect_inv in E. eauto.
Qed.

Definition bshape (t : ty) : Prop := (exists x, t = TBool x) \/ t = TNever.

Lemma bshape_bool x : bshape (TBool x).
Proof. left. eauto. Qed.

Lemma sub_bool_shape t : existsb (subty Permissive t) [TBool BAny] = true -> bshape t.
Proof. unfold bshape. destruct t; cbn; try discriminate; eauto. Qed.

Lemma expect_bool_ok x c : expect (Some (TBool x, c)) [TBool BAny] = Some (TBool x, c).
Proof. destruct x; reflexivity. Qed.

Lemma tc_lit m sch env cs p : tc m sch env cs (Lit p) =
  match p with
  | PBool b => Some (ty_singleton b, [])
  | PLong _ => Some (TLong, [])
  | PString _ => Some (TString, [])
  | PEntity u => match euid_literal_ty sch u with Some t => Some (t, []) | None => None end
  end.
Proof. destruct p; reflexivity. Qed.

Lemma tc_var m sch env cs v :
  tc m sch env cs (Var v) = match ty_of_var sch env v with Some t => Some (t, []) | None => None end.
Proof. reflexivity. Qed.

(* typecheck.rs, ExprKind::If / And / Or, once the test / the left operand has been given a boolean type *)
Definition if_rule (m : vmode) (tcnd : ty) (ccnd : caps) (rx ry : tres) : tres :=
  match tcnd with
  | TBool BTrue =>
      match rx with
      | Some (tx, cx) => Some (tx, caps_union cx ccnd)
      | None => None
      end
  | TBool BFalse => ry
  | _ =>
      match rx, ry with
      | Some (tx, cx), Some (t_y, cy) =>
          match lub m tx t_y with
          | Some t => Some (t, caps_inter cy (caps_union cx ccnd))
          | None => None
          end
      | _, _ => None
      end
  end.

Lemma tc_if m sch env cs c x y : tc m sch env cs (If c x y) =
  match expect (tc m sch env cs c) [TBool BAny] with
  | None => None
  | Some (tcnd, ccnd) => if_rule m tcnd ccnd (tc m sch env (caps_union cs ccnd) x) (tc m sch env cs y)
  end.
Proof. (* `reflexivity` alone is slow to check, here and for && and || *) cbn [tc]. reflexivity. Qed.

Lemma if_rule_inv m tcnd ccnd rx ry t cs' :
  if_rule m tcnd ccnd rx ry = Some (t, cs') ->
  (tcnd = TBool BTrue /\ exists tx cx, rx = Some (tx, cx) /\ t = tx /\ cs' = caps_union cx ccnd) \/
  (tcnd = TBool BFalse /\ ry = Some (t, cs')) \/
  (tcnd <> TBool BTrue /\ tcnd <> TBool BFalse /\
   exists tx cx t_y cy, rx = Some (tx, cx) /\ ry = Some (t_y, cy) /\ lub m tx t_y = Some t /\
                        cs' = caps_inter cy (caps_union cx ccnd)).
Proof.
  intros H.
  assert (Hlub : if_rule m TNever ccnd rx ry = Some (t, cs') ->
                 exists tx cx t_y cy, rx = Some (tx, cx) /\ ry = Some (t_y, cy) /\ lub m tx t_y = Some t /\
                                      cs' = caps_inter cy (caps_union cx ccnd)).
  { cbn [if_rule]. destruct rx as [[tx cx]|]; [|discriminate]. destruct ry as [[t_y cy]|]; [|discriminate].
    destruct (lub m tx t_y) as [tl|] eqn:El; [|discriminate]. intros E; inversion E; subst. eauto 10. }
  destruct tcnd as [|[| |]| | | | | |].
  all: try (right; right; split; [discriminate|]; split; [discriminate|]; exact (Hlub H)).
  - left. split; [reflexivity|]. cbn [if_rule] in H. destruct rx as [[tx cx]|]; [|discriminate]. inversion H; eauto.
  - right. left. split; [reflexivity|exact H].
Qed.

Definition and_rule (ta : ty) (ca : caps) (rb : tres) : tres :=
  match ta with
  | TBool BFalse => Some (ta, [])
  | _ =>
      match expect rb [TBool BAny] with
      | None => None
      | Some (tb, cb) =>
          match tb with
          | TBool BFalse => Some (TBool BFalse, [])
          | TBool BTrue => Some (ta, caps_union ca cb)
          | _ => match ta with
                 | TBool BTrue => Some (tb, caps_union cb cb)
                 | _ => Some (TBool BAny, caps_union ca cb)
                 end
          end
      end
  end.

Lemma tc_and m sch env cs a b : tc m sch env cs (And a b) =
  match expect (tc m sch env cs a) [TBool BAny] with
  | None => None
  | Some (ta, ca) => and_rule ta ca (tc m sch env (caps_union cs ca) b)
  end.
Proof. cbn [tc]. reflexivity. Qed.

Definition or_rule (ta : ty) (ca : caps) (rb : tres) : tres :=
  match ta with
  | TBool BTrue => Some (ta, ca)
  | _ =>
      match expect rb [TBool BAny] with
      | None => None
      | Some (tb, cb) =>
          match tb with
          | TBool BTrue => Some (TBool BTrue, cb)
          | TBool BFalse => Some (ta, ca)
          | _ => match ta with
                 | TBool BFalse => Some (tb, cb)
                 | _ => Some (TBool BAny, caps_inter cb ca)
                 end
          end
      end
  end.

Lemma tc_or m sch env cs a b : tc m sch env cs (Or a b) =
  match expect (tc m sch env cs a) [TBool BAny] with
  | None => None
  | Some (ta, ca) => or_rule ta ca (tc m sch env cs b)
  end.
Proof. cbn [tc]. reflexivity. Qed.

Lemma tc_not m sch env cs a : tc m sch env cs (UnApp UNot a) =
  match expect (tc m sch env cs a) [TBool BAny] with
  | Some (TBool BTrue, _) => Some (TBool BFalse, [])
  | Some (TBool BFalse, _) => Some (TBool BTrue, [])
  | Some (_, _) => Some (TBool BAny, [])
  | None => None
  end.
Proof. reflexivity. Qed.

Lemma tc_neg m sch env cs a : tc m sch env cs (UnApp UNeg a) =
  match expect (tc m sch env cs a) [TLong] with Some _ => Some (TLong, []) | None => None end.
Proof. reflexivity. Qed.

Lemma tc_isempty m sch env cs a : tc m sch env cs (UnApp UIsEmpty a) =
  match expect (tc m sch env cs a) [ty_any_set] with Some _ => Some (TBool BAny, []) | None => None end.
Proof. reflexivity. Qed.

Lemma tc_eq m sch env cs a b : tc m sch env cs (BinApp BEq a b) =
  match tc m sch env cs a, tc m sch env cs b with
  | Some (ta, _), Some (tb, _) =>
      let t := type_of_equality env a ta b tb in
      if is_strict m then (if strict_eq_ok m t ta tb then Some (t, []) else None)
      else Some (t, [])
  | _, _ => None
  end.
Proof. reflexivity. Qed.

Lemma tc_eq_inv m sch env cs a b t c :
  tc m sch env cs (BinApp BEq a b) = Some (t, c) ->
  exists ta ca tb cb, tc m sch env cs a = Some (ta, ca) /\ tc m sch env cs b = Some (tb, cb) /\
                      t = type_of_equality env a ta b tb /\ c = [].
Proof.
  rewrite tc_eq. destruct (tc m sch env cs a) as [[ta ca]|]; [|discriminate].
  destruct (tc m sch env cs b) as [[tb cb]|]; [|discriminate]. cbv zeta. intros H. exists ta, ca, tb, cb.
  destruct (is_strict m); [destruct (strict_eq_ok _ _ _ _)|]; inversion H; auto.
Qed.

Lemma type_of_equality_bool env a ta b tb : exists x, type_of_equality env a ta b tb = TBool x.
Proof.
  unfold type_of_equality, ty_singleton. destruct (disjoint_tys ta tb); [eauto|].
  destruct (replace_action env a); eauto. destruct (replace_action env b); eauto.
Qed.

(* typecheck_binary on < and <= *)
Definition cmp_rule (ta tb : ty) : tres :=
  match ta, tb with
  | TNever, TNever => None
  | TNever, o | o, TNever => if valid_cmp_ty o then Some (TBool BAny, []) else None
  | _, _ => if ty_eqb ta tb && valid_cmp_ty ta then Some (TBool BAny, []) else None
  end.

Lemma tc_cmp m sch env cs op a b : op = BLess \/ op = BLessEq ->
  tc m sch env cs (BinApp op a b) =
  match tc m sch env cs a, tc m sch env cs b with
  | Some (ta, _), Some (tb, _) => cmp_rule ta tb
  | _, _ => None
  end.
Proof. intros [->| ->]; reflexivity. Qed.

Lemma cmp_rule_inv ta tb t c :
  cmp_rule ta tb = Some (t, c) ->
  t = TBool BAny /\ c = [] /\ (ta <> TNever -> tb <> TNever -> ty_eqb ta tb && valid_cmp_ty ta = true).
Proof.
  intros H. destruct ta; destruct tb; cbv beta iota delta [cmp_rule] in H; try discriminate H.
  all: match type of H with (if ?g then _ else _) = _ => destruct g end; [|discriminate H].
  all: inversion H.
  all: split; [reflexivity|]; split; [reflexivity|].
  (* with an operand Never, `g` is not the test asked for, but then a premise fails *)
  all: intros Ha Hb.
  all: first [reflexivity | exfalso; apply Ha; reflexivity | exfalso; apply Hb; reflexivity].
Qed.

Lemma tc_cmp_inv m sch env cs op a b t c : op = BLess \/ op = BLessEq ->
  tc m sch env cs (BinApp op a b) = Some (t, c) ->
  t = TBool BAny /\ c = [] /\
  exists ta ca tb cb, tc m sch env cs a = Some (ta, ca) /\ tc m sch env cs b = Some (tb, cb) /\
                      (ta <> TNever -> tb <> TNever -> ty_eqb ta tb && valid_cmp_ty ta = true).
Proof.
  intros Hop. rewrite tc_cmp by exact Hop.
  destruct (tc m sch env cs a) as [[ta ca]|]; [|discriminate].
  destruct (tc m sch env cs b) as [[tb cb]|]; [|discriminate].
  intros H. destruct (cmp_rule_inv _ _ _ _ H) as (-> & -> & Hc). eauto 10.
Qed.

Lemma tc_arith m sch env cs op a b : op = BAdd \/ op = BSub \/ op = BMul ->
  tc m sch env cs (BinApp op a b) =
  match expect (tc m sch env cs a) [TLong], expect (tc m sch env cs b) [TLong] with
  | Some _, Some _ => Some (TLong, [])
  | _, _ => None
  end.
Proof. intros [->|[->| ->]]; reflexivity. Qed.

Lemma tc_contains m sch env cs a b : tc m sch env cs (BinApp BContains a b) =
  match expect (tc m sch env cs a) [ty_any_set], tc m sch env cs b with
  | Some (ta, _), Some (tb, _) =>
      if is_strict m then
        match ta with
        | TSet (Some te) => if strict_eq_ok m (TBool BAny) te tb then Some (TBool BAny, []) else None
        | _ => Some (TBool BAny, [])
        end
      else Some (TBool BAny, [])
  | _, _ => None
  end.
Proof. reflexivity. Qed.

Lemma tc_contains_aa m sch env cs op a b : op = BContainsAll \/ op = BContainsAny ->
  tc m sch env cs (BinApp op a b) =
  match expect (tc m sch env cs a) [ty_any_set], expect (tc m sch env cs b) [ty_any_set] with
  | Some (ta, _), Some (tb, _) =>
      if is_strict m then (if strict_eq_ok m (TBool BAny) ta tb then Some (TBool BAny, []) else None)
      else Some (TBool BAny, [])
  | _, _ => None
  end.
Proof. intros [->| ->]; reflexivity. Qed.

Lemma tc_contains_inv m sch env cs a b t c :
  tc m sch env cs (BinApp BContains a b) = Some (t, c) ->
  t = TBool BAny /\ c = [] /\
  exists ta ca tb cb, tc m sch env cs a = Some (ta, ca) /\ existsb (subty Permissive ta) [ty_any_set] = true /\
                      tc m sch env cs b = Some (tb, cb).
Proof.
  rewrite tc_contains. intros H. get_expect H ta ca Ea Hsa.
  destruct (tc m sch env cs b) as [[tb cb]|]; [|discriminate H].
  assert (Hr : t = TBool BAny /\ c = []).
  { destruct (is_strict m); [destruct ta as [| | | |[e|]| | |]; try destruct (strict_eq_ok _ _ _ _)|].
    all: inversion H; auto. }
  destruct Hr as [-> ->]. eauto 10.
Qed.

Lemma tc_contains_aa_inv m sch env cs op a b t c : op = BContainsAll \/ op = BContainsAny ->
  tc m sch env cs (BinApp op a b) = Some (t, c) ->
  t = TBool BAny /\ c = [] /\
  exists ta ca tb cb, tc m sch env cs a = Some (ta, ca) /\ existsb (subty Permissive ta) [ty_any_set] = true /\
                      tc m sch env cs b = Some (tb, cb) /\ existsb (subty Permissive tb) [ty_any_set] = true.
Proof.
  intros Hop. rewrite tc_contains_aa by exact Hop. intros H.
  get_expect H ta ca Ea Hsa.
  get_expect H tb cb Eb Hsb.
  assert (Hr : t = TBool BAny /\ c = []).
  { destruct (is_strict m); [destruct (strict_eq_ok _ _ _ _)|]; inversion H; auto. }
  destruct Hr as [-> ->]. eauto 12.
Qed.

Lemma tc_getattr m sch env cs x a : tc m sch env cs (GetAttr x a) =
  match expect (tc m sch env cs x) [ty_any_entity; ty_any_record] with
  | None => None
  | Some (tx, _) =>
      match lookup_attr_ty sch tx a with
      | Some (t, req) => if req || caps_mem (cap_attr x a) cs then Some (t, []) else None
      | None => None
      end
  end.
Proof. reflexivity. Qed.

Lemma tc_hasattr m sch env cs x a : tc m sch env cs (HasAttr x a) =
  match expect (tc m sch env cs x) [ty_any_entity; ty_any_record] with
  | None => None
  | Some (tx, _) =>
      match lookup_attr_ty sch tx a with
      | Some (_, true) =>
          let is_rec := match tx with TRecord _ _ => true | _ => false end in
          Some (if is_rec || caps_mem (cap_attr x a) cs then TBool BTrue else TBool BAny, [cap_attr x a])
      | Some (_, false) =>
          Some (if caps_mem (cap_attr x a) cs then TBool BTrue else TBool BAny, [cap_attr x a])
      | None => Some (if may_have_attr sch tx a then TBool BAny else TBool BFalse, [])
      end
  end.
Proof. reflexivity. Qed.

Lemma tc_like m sch env cs x p : tc m sch env cs (Like x p) =
  match expect (tc m sch env cs x) [TString] with Some _ => Some (TBool BAny, []) | None => None end.
Proof. reflexivity. Qed.

Lemma tc_is m sch env cs x et : tc m sch env cs (Is x et) =
  match expect (tc m sch env cs x) [ty_any_entity] with
  | Some (TEntity (ELub l), _) =>
      Some (if negb (lub_contains l et) then TBool BFalse
            else match l with [_] => TBool BTrue | _ => TBool BAny end, [])
  | Some (TEntity AnyEntity, _) => Some (TBool BAny, [])
  | _ => None
  end.
Proof. reflexivity. Qed.

Lemma tc_is_inv m sch env cs x et t c :
  tc m sch env cs (Is x et) = Some (t, c) ->
  c = [] /\ exists tx cx, tc m sch env cs x = Some (tx, cx) /\
    ((tx = TEntity AnyEntity /\ t = TBool BAny) \/
     exists l, tx = TEntity (ELub l) /\
       t = if negb (lub_contains l et) then TBool BFalse else match l with [_] => TBool BTrue | _ => TBool BAny end).
Proof.
  rewrite tc_is. intros H. get_expect H tx cx Ex Hsx.
  destruct tx as [| | | | |[|l]| |]; try discriminate H; inversion H; eauto 10.
Qed.
