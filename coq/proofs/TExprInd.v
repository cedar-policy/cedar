From Cedar Require Import TExpr BaseFacts.

Section TExprInd.
  Variable P : texpr -> Prop.
  Hypothesis HLit : forall p t, P (TELit p t).
  Hypothesis HVar : forall v t, P (TEVar v t).
  Hypothesis HSlot : forall s t, P (TESlot s t).
  Hypothesis HUnk : forall n rt t, P (TEUnknown n rt t).
  Hypothesis HIf : forall c a b t, P c -> P a -> P b -> P (TEIf c a b t).
  Hypothesis HAnd : forall a b t, P a -> P b -> P (TEAnd a b t).
  Hypothesis HOr : forall a b t, P a -> P b -> P (TEOr a b t).
  Hypothesis HUn : forall op a t, P a -> P (TEUnApp op a t).
  Hypothesis HBin : forall op a b t, P a -> P b -> P (TEBinApp op a b t).
  Hypothesis HExt : forall fn args t, Forall P args -> P (TEExtCall fn args t).
  Hypothesis HGet : forall e k t, P e -> P (TEGetAttr e k t).
  Hypothesis HHas : forall e k t, P e -> P (TEHasAttr e k t).
  Hypothesis HLike : forall e p t, P e -> P (TELike e p t).
  Hypothesis HIs : forall e et t, P e -> P (TEIs e et t).
  Hypothesis HSet : forall items t, Forall P items -> P (TESet items t).
  Hypothesis HRec : forall items t, Forall (fun kv => P (snd kv)) items -> P (TERecord items t).

  Fixpoint texpr_ind' (e : texpr) : P e :=
    match e with
    | TELit p t => HLit p t
    | TEVar v t => HVar v t
    | TESlot s t => HSlot s t
    | TEUnknown n rt t => HUnk n rt t
    | TEIf c a b t => HIf c a b t (texpr_ind' c) (texpr_ind' a) (texpr_ind' b)
    | TEAnd a b t => HAnd a b t (texpr_ind' a) (texpr_ind' b)
    | TEOr a b t => HOr a b t (texpr_ind' a) (texpr_ind' b)
    | TEUnApp op a t => HUn op a t (texpr_ind' a)
    | TEBinApp op a b t => HBin op a b t (texpr_ind' a) (texpr_ind' b)
    | TEExtCall fn args t => HExt fn args t (Forall_all texpr_ind' args)
    | TEGetAttr e k t => HGet e k t (texpr_ind' e)
    | TEHasAttr e k t => HHas e k t (texpr_ind' e)
    | TELike e p t => HLike e p t (texpr_ind' e)
    | TEIs e et t => HIs e et t (texpr_ind' e)
    | TESet items t => HSet items t (Forall_all texpr_ind' items)
    | TERecord items t => HRec items t (Forall_all (fun kv => texpr_ind' (snd kv)) items)
    end.
End TExprInd.
