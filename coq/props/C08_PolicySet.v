(* C08 — template linking equals substitution; policy-set edits keep ids consistent.
   Proved here (on the model coq/model/PolicySet.v, for all states / operations / bindings):
     c08_fail_noop_api, c08_fail_noop_core : a failed operation returns the state unchanged
       (including the restore paths of remove_static / unlink / remove_template and a failed merge);
     c08_link_arity : link succeeds iff the template exists, is not the body of a present static policy
       (c08_link_static_body_refused), exactly its slots are bound (c08_binding_exact characterises
       check_binding) and the new id is unused;
     c08_link_effect_annotations_partial : effect / annotations of a link are its template's.  `_partial`:
       holds by definition of the model (a link reads both from its template); the code is compared by the check.
     c08_wf_step (API level, every operation except merge) / c08_history_partial (every merge-free
       history from the empty set): the invariant WFapi = core WF (templates stored under their id;
       every link stored under its id, its template present, exactly the template's slots bound, static
       iff slot-less template; no id both template and template-linked policy; every slot-less template
       is a present static policy; template_to_links = exactly the inverse image) + API maps =
       projection of the core maps.  `_partial`: merge is not covered (not proved).
     c08_wf_step_core : the same for ast::PolicySet under the VISIBLE precondition core_ok (no slot-less
       template added as template, no re-add of a template-linked policy object, no merge);
       c08_wf_refuted_without_it : without it the faithful model loses the invariant (witness
       add_template t; link t->x; unlink x; add_template x; add(unlinked object x): x is both a template
       and a template-linked policy — core level only, the API refuses to `add` a linked policy).
     c08_link_subst_partial : for every request, store, template, binding and link id, evaluating the
       linked policy (slot environment of Eval.v) = evaluating the static policy obtained by writing the
       bound entity in place of each slot (subst_slots); unbound slots give ErrUnlinkedSlot on both sides.
       `_partial`: the hypothesis body_closed (the when/unless body evaluates independently of the slot
       environment — the parser rejects slots there) is semantic, not derived from a syntactic check.
     c08_refines : refinement of the six core operations to the abstract finite map
       abs_of : id -> static body | template | link(template id, values): each successful operation is the
       abstract put/delete, and (under WF) it succeeds exactly when the abstract precondition holds
       (add*: id free; link: entry is a template, exact binding, id free; unlink: entry is a link;
       remove_static: entry is static; remove_template: entry is a template no link names);
       c08_policies_exact : the policies authorization iterates over (`ps_links`) are exactly the static
       bodies and links of the abstract map.
     c08_no_shared_id, c08_link_has_template : the property's wording, as consequences of WF.
   NOT proved: merge (invariant preservation, contents = a U rho(b), rho injective/fresh). *)
From Cedar Require Import PolicySet PolicySetWF PolicySetSubst PolicySetRefine.

Theorem c08_fail_noop_api : forall h o h' e r, api_step h o = (h', (OErr e, r)) -> h' = h.
Proof.
  intros h o h' e r.
  destruct o as [t|t|t|tmpl new env|i|i|i|k|rename other|rename other]; cbn [api_step].
  - destruct (t_is_static t); [apply step_fail_noop; reflexivity | intros [= <-]; reflexivity].
  - destruct (t_is_static t); [apply step_fail_noop; reflexivity | intros [= <-]; reflexivity].
  - destruct (t_is_static t); [intros [= <-]; reflexivity | apply step_fail_noop; reflexivity].
  - apply step_fail_noop; reflexivity.
  - apply step_fail_noop. intros [a p]; reflexivity.
  - apply step_fail_noop. intros [a p]; reflexivity.
  - apply step_fail_noop; reflexivity.
  - destruct (h_stash h); [intros [= <-]; reflexivity | apply step_fail_noop; reflexivity].
  - apply step_fail_noop. intros [a rn]; reflexivity.
  - intros [= <-]; reflexivity.
Qed.
Print Assumptions c08_fail_noop_api.

Theorem c08_fail_noop_core : forall h o h' e r, ast_step h o = (h', (OErr e, r)) -> h' = h.
Proof.
  intros h o h' e r.
  destruct o as [t|t|t|tmpl new env|i|i|i|k|rename other|rename other]; cbn [ast_step].
  - destruct (t_is_static t); [apply step_fail_noop; reflexivity | intros [= <-]; reflexivity].
  - destruct (t_is_static t); [apply step_fail_noop; reflexivity | intros [= <-]; reflexivity].
  - apply step_fail_noop; reflexivity.
  - apply step_fail_noop; reflexivity.
  - apply step_fail_noop. intros [a p]; reflexivity.
  - apply step_fail_noop. intros [a p]; reflexivity.
  - apply step_fail_noop; reflexivity.
  - destruct (h_stash h); [intros [= <-]; reflexivity | apply step_fail_noop; reflexivity].
  - intros [= <-]; reflexivity.
  - apply step_fail_noop. intros [a rn]; reflexivity.
Qed.
Print Assumptions c08_fail_noop_core.

Theorem c08_link_arity : forall s tmpl new env,
  (exists s', ps_link s tmpl new env = OOk s') <->
  (exists t, alookup tmpl (ps_templates s) = Some t /\ (t_is_static t && amem tmpl (ps_links s)) = false /\
             check_binding t env = true /\ bound s new = false).
Proof.
  intros s tmpl new env. unfold bound. split.
  - intros [s' (t & ET & NS & EB & EL & EN & _)%ps_link_ok]. apply amem_false in EL, EN.
    exists t. rewrite EL, EN. auto.
  - intros (t & ET & NS & EB & [EN EL]%Bool.orb_false_iff). apply amem_false in EL, EN.
    eexists. apply ps_link_ok. exists t. auto 6.
Qed.
Print Assumptions c08_link_arity.

Theorem c08_binding_exact : forall t env,
  check_binding t env = true <->
  ((forall s, In s (tslots t) -> env_has s env = true) /\
   (forall s u, In (s, u) env -> exists s', In s' (tslots t) /\ slot_eqb s s' = true)).
Proof.
  intros t env. unfold check_binding. rewrite Bool.andb_true_iff, !forallb_forall. split.
  - intros [A B]. split; [exact A|]. intros s u Hin. specialize (B _ Hin). cbn in B.
    apply existsb_exists in B. exact B.
  - intros [A B]. split; [exact A|]. intros [s u] Hin. cbn. apply existsb_exists. eapply B; eauto.
Qed.
Print Assumptions c08_binding_exact.

Theorem c08_link_effect_annotations_partial : forall t new env,
  peffect (mkPolicy t (Some new) env) = teffect t /\ tannot (ptemplate (mkPolicy t (Some new) env)) = tannot t.
Proof. split; reflexivity. Qed.
Print Assumptions c08_link_effect_annotations_partial.

Theorem c08_wf_step : forall h o h' r,
  Hinv h -> no_merge o -> api_step h o = (h', r) -> Hinv h'.
Proof. intros h o h' r HI NM E. pose proof (api_step_Hinv h o HI NM) as X. rewrite E in X. exact X. Qed.
Print Assumptions c08_wf_step.

Theorem c08_history_partial : forall ops,
  Forall no_merge ops -> Hinv (run_ops api_step ops empty_h).
Proof. intros ops F. exact (api_history_Hinv ops empty_h Hinv_empty F). Qed.
Print Assumptions c08_history_partial.

Theorem c08_wf_step_core : forall h o h' r,
  CoreInv h -> core_ok h o -> ast_step h o = (h', r) -> CoreInv h'.
Proof. intros h o h' r HI OK E. pose proof (ast_step_CoreInv h o HI OK) as X. rewrite E in X. exact X. Qed.
Print Assumptions c08_wf_step_core.

Theorem c08_wf_refuted_without_it :
  exists ops, ~ WF (a_ast (h_api (run_ops ast_step ops empty_h))).
Proof. exists wit_ops. exact core_WF_refuted. Qed.
Print Assumptions c08_wf_refuted_without_it.

Theorem c08_link_subst_partial : forall q es t env i,
  body_closed q es t ->
  eval_policy q es (mkPolicy t (Some i) env) = eval_policy q es (static_of (subst_slots env t)).
Proof. exact link_subst. Qed.
Print Assumptions c08_link_subst_partial.

(* the body of a present static policy is not a link target: ast::PolicySet::link as of /repo 3c064e2 *)
Theorem c08_link_static_body_refused : forall s t new env,
  alookup (tid t) (ps_templates s) = Some t -> t_is_static t = true -> amem (tid t) (ps_links s) = true ->
  ps_link s (tid t) new env = OErr ENoSuchTemplate.
Proof. intros s t new env HT St HL. unfold ps_link. rewrite HT, St, HL. reflexivity. Qed.
Print Assumptions c08_link_static_body_refused.

Theorem c08_refines : forall s, WF s ->
  (forall t s', ps_add_static s t = OOk s' -> forall i, abs_of s' i = aput (abs_of s) (tid t) (AStatic t) i) /\
  (forall t, (exists s', ps_add_static s t = OOk s') <-> abs_of s (tid t) = None) /\
  (forall t s', ps_add_template s t = OOk s' -> forall i, abs_of s' i = aput (abs_of s) (tid t) (ATemplate t) i) /\
  (forall t, (exists s', ps_add_template s t = OOk s') <-> abs_of s (tid t) = None) /\
  (forall tmpl new env s', ps_link s tmpl new env = OOk s' ->
      forall i, abs_of s' i = aput (abs_of s) new (ALink tmpl env) i) /\
  (forall tmpl new env, (exists s', ps_link s tmpl new env = OOk s') <->
      (exists t, abs_of s tmpl = Some (ATemplate t) /\ check_binding t env = true /\ abs_of s new = None)) /\
  (forall i s' p, ps_unlink s i = OOk (s', p) -> forall j, abs_of s' j = adel (abs_of s) i j) /\
  (forall i, (exists r, ps_unlink s i = OOk r) <-> (exists t e, abs_of s i = Some (ALink t e))) /\
  (forall i s' p, ps_remove_static s i = OOk (s', p) -> forall j, abs_of s' j = adel (abs_of s) i j) /\
  (forall i, (exists r, ps_remove_static s i = OOk r) <-> (exists t, abs_of s i = Some (AStatic t))) /\
  (forall i s', ps_remove_template s i = OOk s' -> forall j, abs_of s' j = adel (abs_of s) i j) /\
  (forall i, (exists s', ps_remove_template s i = OOk s') <->
      ((exists t, abs_of s i = Some (ATemplate t)) /\ forall j e, abs_of s j <> Some (ALink i e))).
Proof.
  intros s W.
  split; [intros; eapply add_static_refines; eauto|].
  split; [intros; apply add_static_ok_iff|].
  split; [intros; eapply add_template_refines; eauto|].
  split; [intros; apply add_template_ok_iff|].
  split; [intros; eapply link_refines; eauto|].
  split; [intros; apply link_ok_iff; exact W|].
  split; [intros; eapply unlink_refines; eauto|].
  split; [intros; apply unlink_ok_iff; exact W|].
  split; [intros; eapply remove_static_refines; eauto|].
  split; [intros; apply remove_static_ok_iff; exact W|].
  split; [intros; eapply remove_template_refines; eauto|].
  intros; apply remove_template_ok_iff; exact W.
Qed.
Print Assumptions c08_refines.

Theorem c08_policies_exact : forall s i,
  (forall p, alookup i (ps_links s) = Some p ->
     abs_of s i = Some (match plink p with None => AStatic (ptemplate p) | Some _ => ALink (tid (ptemplate p)) (penv p) end)) /\
  (alookup i (ps_links s) = None -> abs_of s i = None \/ exists t, abs_of s i = Some (ATemplate t)).
Proof.
  intros s i. unfold abs_of. split; [intros p ->; reflexivity|].
  intros ->. destruct (alookup i (ps_templates s)); eauto.
Qed.
Print Assumptions c08_policies_exact.

(* merge, the part that is proved: without renaming a successful merge renamed nothing (any conflict is
   an error, and by c08_fail_noop_* the set is then unchanged); with renaming merge always succeeds *)
Theorem c08_merge_partial : forall a b,
  (forall s' r, ps_merge a b false = OOk (s', r) -> r = []) /\ (exists s' r, ps_merge a b true = OOk (s', r)).
Proof. intros a b. split; [apply ps_merge_norename | apply ps_merge_rename_total]. Qed.
Print Assumptions c08_merge_partial.

Theorem c08_no_shared_id : forall s i p t, WF s ->
  alookup i (ps_links s) = Some p -> alookup i (ps_templates s) = Some t -> plink p = None /\ t = ptemplate p.
Proof. exact WF_shared_id. Qed.
Print Assumptions c08_no_shared_id.

Theorem c08_link_has_template : forall s i p, WF s ->
  alookup i (ps_links s) = Some p -> alookup (tid (ptemplate p)) (ps_templates s) = Some (ptemplate p).
Proof. intros s i p W H. exact (proj1 (proj2 (wf_link _ W _ _ H))). Qed.
Print Assumptions c08_link_has_template.

(* non-vacuity: a link with exactly the template's slot succeeds, one with a missing slot fails *)
Definition ex_t : template := mkTemplate [116%N] [] Permit (CEq RefSlot) AAny CAny None.
Definition ex_u : uid := mkUid [[85%N]] [97%N].
Example ex_link_ok :
  exists s1 s2, ps_add_template empty_pset ex_t = OOk s1 /\ ps_link s1 [116%N] [108%N] [(SlotPrincipal, ex_u)] = OOk s2.
Proof. eexists. eexists. split; vm_compute; reflexivity. Qed.
Example ex_link_arity :
  exists s1, ps_add_template empty_pset ex_t = OOk s1 /\ ps_link s1 [116%N] [108%N] [] = OErr EArity.
Proof. eexists. split; vm_compute; reflexivity. Qed.
Example ex_history : Hinv (run_ops api_step
  [OpAddTemplate ex_t; OpLink [116%N] [108%N] [(SlotPrincipal, ex_u)]; OpUnlink [108%N]; OpRemoveTemplate [116%N]] empty_h).
Proof. apply c08_history_partial. repeat constructor. Qed.
Example ex_body_closed : forall q es, body_closed q es ex_t.
Proof. intros q es sl e H. discriminate H. Qed.
Example ex_fail_noop :
  api_step empty_h (OpUnlink [120%N]) = (empty_h, (OErr ELinkNonexistent, [])).
Proof. vm_compute. reflexivity. Qed.
