(* TypecheckIf.v — C03: the branches of an `if` of the fragment are boolean-rooted forms
   (&&, ||, !, ==, has, boolean literal, like, is, isEmpty, <, <=, contains, containsAll, containsAny),
   and `tc` gives every such form a boolean type. *)
From Cedar Require Import Typecheck TypecheckRules TypecheckProofs.

Definition boolish' (e : expr) : bool :=
  boolish e ||
  match e with
  | Like _ _ | Is _ _ | UnApp UIsEmpty _ => true
  | BinApp BLess _ _ | BinApp BLessEq _ _ | BinApp BContains _ _ | BinApp BContainsAll _ _ | BinApp BContainsAny _ _ => true
  | _ => false
  end.

Definition bool_typed (m : vmode) (sch : schema) (env : reqenv) (e : expr) : Prop :=
  forall cs t c, tc m sch env cs e = Some (t, c) -> bshape t.

Lemma boolish'_typed m sch env e : boolish' e = true -> bool_typed m sch env e.
Proof.
  destruct e; cbn [boolish' boolish orb]; intros Hb; try discriminate Hb; intros cs t' c' H.
  - destruct p; try discriminate Hb. rewrite tc_lit in H. inversion H. apply bshape_bool.
  - rewrite tc_and in H. get_expect H ta ca Ea Hsa.
    apply and_rule_inv in H as [(_ & -> & _)|(tb & cb & _ & _ & Bt & _)]; [| |exact (sub_bool_shape _ Hsa)].
    + apply bshape_bool.
    + exact Bt.
  - rewrite tc_or in H. get_expect H ta ca Ea Hsa.
    apply or_rule_inv in H as [(_ & -> & _)|(tb & cb & _ & _ & Bt & _)]; [| |exact (sub_bool_shape _ Hsa)].
    + apply bshape_bool.
    + exact Bt.
  - destruct op; try discriminate Hb.
    + rewrite tc_not in H. get_expect H ta ca Ea Hsa.
      destruct ta as [|b0| | | | | |]; try destruct b0; inversion H; apply bshape_bool.
    + rewrite tc_isempty in H. apply expect_then_inv in H. destruct H as [E _]. inversion E. apply bshape_bool.
  - destruct op; try discriminate Hb.
    + apply tc_eq_inv in H as (ta & ca & tb & cb & _ & _ & -> & _). left. apply type_of_equality_bool.
    + destruct (tc_cmp_inv _ _ _ _ BLess _ _ _ _ (or_introl eq_refl) H) as (-> & _). apply bshape_bool.
    + destruct (tc_cmp_inv _ _ _ _ BLessEq _ _ _ _ (or_intror eq_refl) H) as (-> & _). apply bshape_bool.
    + apply tc_contains_inv in H as (-> & _). apply bshape_bool.
    + destruct (tc_contains_aa_inv _ _ _ _ BContainsAll _ _ _ _ (or_introl eq_refl) H) as (-> & _). apply bshape_bool.
    + destruct (tc_contains_aa_inv _ _ _ _ BContainsAny _ _ _ _ (or_intror eq_refl) H) as (-> & _). apply bshape_bool.
  - rewrite tc_hasattr in H. cbv zeta in H. get_expect H tx cx Ex Hsx.
    destruct (lookup_attr_ty sch tx a) as [[ta [|]]|].
    + destruct (_ || _); inversion H; apply bshape_bool.
    + destruct (caps_mem _ _); inversion H; apply bshape_bool.
    + destruct (may_have_attr _ _ _); inversion H; apply bshape_bool.
  - rewrite tc_like in H. apply expect_then_inv in H. destruct H as [E _]. inversion E. apply bshape_bool.
  - apply tc_is_inv in H as (_ & tx & cx & _ & [[_ ->]|(l & _ & ->)]); [apply bshape_bool|].
    destruct (negb _); [apply bshape_bool|]. destruct l as [|? [|? ?]]; apply bshape_bool.
Qed.
