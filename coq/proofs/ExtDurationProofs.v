From Coq Require Import Lia.
From Cedar Require Import ExtParse BaseFacts ExtParseProofs.
Open Scope list_scope.
Open Scope Z_scope.

Definition grp (c : option str) (u : str) : str :=
  match c with Some ds => ds ++ u | None => [] end.

Fixpoint render (us : list str) (caps : list (option str)) : str :=
  match us, caps with
  | u :: us', c :: caps' => grp c u ++ render us' caps'
  | _, _ => []
  end.

Definition cap_wf (c : option str) : Prop :=
  match c with Some ds => ds <> [] /\ all_ascii_digits ds = true | None => True end.

Definition nondigit_head (s : str) : Prop :=
  exists c t, s = c :: t /\ is_ascii_digit c = false.

Lemma strip_prefix_sound u : forall s r, strip_prefix u s = Some r -> s = u ++ r.
Proof.
  induction u as [|a u IH]; intros s r H; cbn in H.
  - inversion H; reflexivity.
  - destruct s as [|b s]; [discriminate|]. destruct (N.eqb_spec a b); [|discriminate].
    subst. cbn. f_equal. apply IH; assumption.
Qed.

Lemma strip_prefix_complete u r : strip_prefix u (u ++ r) = Some r.
Proof. induction u as [|a u IH]; cbn; [reflexivity|]. rewrite N.eqb_refl. exact IH. Qed.

Lemma take_group_sound u s ds r :
  take_group u s = Some (ds, r) -> s = ds ++ u ++ r /\ ds <> [] /\ all_ascii_digits ds = true.
Proof.
  unfold take_group. destruct (span is_ascii_digit s) as [a b] eqn:S.
  apply span_spec in S. destruct S as (E & F & _).
  destruct a as [|a0 a']; [discriminate|].
  destruct (strip_prefix u b) as [r'|] eqn:P; [|discriminate].
  intros H; inversion H; subst. apply strip_prefix_sound in P. subst b.
  rewrite all_ascii_digits_forallb. repeat split; auto. discriminate.
Qed.

Lemma take_group_complete u ds r :
  ds <> [] -> all_ascii_digits ds = true -> nondigit_head u ->
  take_group u (ds ++ u ++ r) = Some (ds, r).
Proof.
  intros Hne Hd (c & t & -> & Hc). unfold take_group.
  rewrite all_ascii_digits_forallb in Hd.
  rewrite (span_exact is_ascii_digit ds ((c :: t) ++ r) Hd) by (cbn; exact Hc).
  destruct ds; [congruence|]. rewrite strip_prefix_complete. reflexivity.
Qed.

Lemma mg_sound : forall us s caps,
  match_groups us s = Some caps -> s = render us caps /\ Forall cap_wf caps.
Proof.
  induction us as [|u us IH]; intros s caps H; cbn [match_groups] in H.
  - destruct s; [|discriminate]. inversion H; subst. cbn. auto.
  - set (skip := match match_groups us s with Some caps0 => Some (None :: caps0) | None => None end) in H.
    assert (SK : skip = Some caps -> s = render (u :: us) caps /\ Forall cap_wf caps).
    { unfold skip. destruct (match_groups us s) as [caps0|] eqn:M; [|discriminate]. intros [= <-].
      destruct (IH _ _ M) as (E & W). split; [exact E|]. constructor; cbn; auto. }
    destruct (take_group u s) as [[ds r]|] eqn:T; [|exact (SK H)].
    destruct (match_groups us r) as [caps0|] eqn:M; [|exact (SK H)].
    injection H as <-. destruct (IH _ _ M) as (E & W).
    destruct (take_group_sound u s ds r T) as (Es & N0 & D). split.
    + cbn. rewrite Es, E, <- app_assoc. reflexivity.
    + constructor; cbn; auto.
Qed.

Lemma mg_none_head : forall us s, nondigit_head s -> match_groups us s = None.
Proof.
  induction us as [|u us IH]; intros s (c & t & -> & Hc); cbn [match_groups]; [reflexivity|].
  assert (T : take_group u (c :: t) = None) by (unfold take_group; cbn; rewrite Hc; reflexivity).
  rewrite T. rewrite IH by (exists c, t; auto). reflexivity.
Qed.

Lemma digit_run_unique : forall a b x y,
  all_ascii_digits a = true -> all_ascii_digits b = true -> nondigit_head x -> nondigit_head y ->
  a ++ x = b ++ y -> a = b /\ x = y.
Proof.
  induction a as [|c a IH]; intros b x y Ha Hb Hx Hy E.
  - destruct b as [|c' b]; [auto|]. exfalso. destruct Hx as (cx & tx & -> & Hcx). cbn in E. inversion E; subst.
    cbn in Hb. rewrite Hcx in Hb. discriminate.
  - destruct b as [|c' b].
    + exfalso. destruct Hy as (cy & ty & -> & Hcy). cbn in E. inversion E; subst.
      cbn in Ha. rewrite Hcy in Ha. discriminate.
    + cbn in E. inversion E; subst. cbn in Ha, Hb. apply andb_true_iff in Ha, Hb.
      destruct (IH b x y) as [-> ->]; tauto.
Qed.

(* the regex never really backtracks: no digit follows a unit that also begins a later one (m, ms) *)
Definition sep_ok (u v : str) : Prop :=
  forall r t, u ++ r = v ++ t -> nondigit_head r.

Fixpoint units_ok (us : list str) : Prop :=
  match us with
  | [] => True
  | u :: us' => nondigit_head u /\ Forall (sep_ok u) us' /\ units_ok us'
  end.

Lemma units_ok_heads us : units_ok us -> Forall nondigit_head us.
Proof. induction us as [|u us IH]; cbn; [constructor|]. intros (H & _ & R). constructor; auto. Qed.

Lemma nondigit_head_app u r : nondigit_head u -> nondigit_head (u ++ r).
Proof. intros (c & t & -> & H). exists c, (t ++ r). auto. Qed.

Lemma rest_after_unit_nondigit u : nondigit_head u -> forall us caps,
  Forall cap_wf caps -> Forall (sep_ok u) us -> Forall nondigit_head us ->
  forall ds r, render us caps = ds ++ u ++ r -> ds <> [] -> all_ascii_digits ds = true ->
  nondigit_head r.
Proof.
  intros Hu. induction us as [|v us IH]; intros caps W Sp Hd ds r E N0 D.
  - cbn in E. symmetry in E. apply app_eq_nil in E. tauto.
  - destruct caps as [|c caps]; [cbn in E; symmetry in E; apply app_eq_nil in E; tauto|].
    apply Forall_cons_iff in W as [Wc W]. apply Forall_cons_iff in Sp as [Sv Sp].
    apply Forall_cons_iff in Hd as [Hv Hd].
    destruct c as [ds'|]; cbn [render grp] in E.
    + rewrite <- app_assoc in E. destruct Wc as [N1 D1].
      destruct (digit_run_unique ds' ds (v ++ render us caps) (u ++ r) D1 D) as [_ E2];
        auto using nondigit_head_app.
      symmetry in E2. exact (Sv _ _ E2).
    + cbn in E. eapply IH; eauto.
Qed.

Lemma mg_complete : forall us caps s,
  units_ok us -> length caps = length us -> Forall cap_wf caps -> s = render us caps ->
  match_groups us s = Some caps.
Proof.
  induction us as [|u us IH]; intros caps s U L W E.
  - destruct caps; [|discriminate]. subst. reflexivity.
  - destruct caps as [|c caps]; [discriminate|]. cbn in L. apply Forall_cons_iff in W as [Wc W].
    subst s. destruct U as (Hu & Sp & U'). cbn [match_groups].
    destruct c as [ds|]; cbn [render grp].
    + destruct Wc as [N0 D]. rewrite <- app_assoc. rewrite (take_group_complete u ds _ N0 D Hu).
      rewrite (IH caps _ U' ltac:(lia) W eq_refl). reflexivity.
    + cbn [app]. rewrite (IH caps _ U' ltac:(lia) W eq_refl).
      destruct (take_group u (render us caps)) as [[ds' r']|] eqn:T; [|reflexivity].
      destruct (take_group_sound _ _ _ _ T) as (Es & N0 & D).
      pose proof (rest_after_unit_nondigit u Hu us caps W Sp (units_ok_heads _ U') ds' r' Es N0 D) as Hr.
      rewrite (mg_none_head us r' Hr). reflexivity.
Qed.

Lemma nondigit_head_cons c t : is_ascii_digit c = false -> nondigit_head (c :: t).
Proof. intros H. exists c, t. auto. Qed.

Lemma sep_ok_heads_differ c u d v : c <> d -> sep_ok (c :: u) (d :: v).
Proof. intros N r t H. injection H as E _. contradiction. Qed.

Lemma duration_units_ok : units_ok duration_units.
Proof.
  unfold duration_units. cbn [units_ok].
  repeat split; try (apply nondigit_head_cons; reflexivity).
  all: repeat constructor; try (apply sep_ok_heads_differ; discriminate).
  (* "m" before "ms" *)
  intros r t H. injection H as ->. apply nondigit_head_cons. reflexivity.
Qed.

Definition cap_val (c : option str) : Z :=
  match c with Some ds => digits_val ds | None => 0 end.

Definition dur_total (neg : bool) (d h m sec ms : Z) : Z :=
  (if neg then -1 else 1) * (d * 86400000 + h * 3600000 + m * 60000 + sec * 1000 + ms).

Lemma cap_val_nonneg c : cap_wf c -> 0 <= cap_val c.
Proof. destruct c as [ds|]; cbn; [intros [_ D]; apply digits_val_bounds; exact D|lia]. Qed.

Lemma get_number_spec c :
  get_number c = if cap_val c <=? u64_max then Some (cap_val c) else None.
Proof. destruct c; reflexivity. Qed.

Lemma get_number_small c : cap_val c <= 9223372036854775808 -> get_number c = Some (cap_val c).
Proof.
  intros H. rewrite get_number_spec. replace (cap_val c <=? u64_max) with true; [reflexivity|].
  symmetry. apply Z.leb_le. unfold u64_max. lia.
Qed.

(* The code also refuses y * mul outside i64; under a minus sign the sum could still fit, but
   only for y * mul = 2^63, and every multiplier is a multiple of 5. *)
Lemma dur_checked_op_signed neg a y mul :
  0 <= a -> 0 <= y -> 0 < mul -> mul mod 5 = 0 ->
  dur_checked_op neg (signed neg a) y mul = checked_i64 (signed neg (a + y * mul)).
Proof.
  intros Ha Hy Hmul H5. unfold dur_checked_op, checked_i64.
  replace (if neg then signed neg a - y * mul else signed neg a + y * mul)
    with (signed neg (a + y * mul)) by (unfold signed; destruct neg; lia).
  destruct (in_i64 (signed neg (a + y * mul))) eqn:I; [|destruct (i64_max <? y), (in_i64 (y * mul)); reflexivity].
  assert (Hy' : y <= y * mul) by nia.
  assert (E5 : y * mul = 5 * (y * (mul / 5))) by (rewrite (Z.div_mod mul 5) at 1 by lia; lia).
  revert Hy' E5 I. rewrite in_i64_bounds. generalize (y * mul) (y * (mul / 5)). intros p q Hy' E5 I.
  replace (i64_max <? y) with false by (symmetry; apply Z.ltb_ge; unfold i64_max, signed in *; destruct neg; lia).
  replace (in_i64 p) with true by (symmetry; apply in_i64_bounds; unfold signed in *; destruct neg; lia).
  reflexivity.
Qed.

Lemma dur_chain_end neg a y mul :
  0 <= a -> 0 <= y -> 0 < mul -> mul mod 5 = 0 ->
  (let? x := checked_i64 (signed neg a) in dur_checked_op neg x y mul) =
  checked_i64 (signed neg (a + y * mul)).
Proof.
  intros Ha Hy Hmul H5. unfold checked_i64 at 1. destruct (in_i64 (signed neg a)) eqn:I; cbn [obind].
  - apply dur_checked_op_signed; assumption.
  - unfold checked_i64. destruct (in_i64 (signed neg (a + y * mul))) eqn:I'; [|reflexivity].
    apply (signed_in_i64_mono neg a) in I'; [congruence|nia].
Qed.

Lemma dur_chain_link neg a y mul (rest : Z -> option Z) :
  0 <= a -> 0 <= y -> 0 < mul -> mul mod 5 = 0 ->
  (let? x := checked_i64 (signed neg a) in let? b := dur_checked_op neg x y mul in rest b) =
  (let? b := checked_i64 (signed neg (a + y * mul)) in rest b).
Proof.
  intros Ha Hy Hmul H5. rewrite <- (dur_chain_end neg a y mul) by assumption.
  destruct (checked_i64 (signed neg a)); reflexivity.
Qed.

(* as in the code, milliseconds first *)
Definition dur_chain (neg : bool) (d h m sec ms : Z) : option Z :=
  let? a := checked_i64 (signed neg ms) in
  let? a := dur_checked_op neg a sec 1000 in
  let? a := dur_checked_op neg a m 60000 in
  let? a := dur_checked_op neg a h 3600000 in
  dur_checked_op neg a d 86400000.

Lemma dur_chain_total neg d h m sec ms :
  0 <= d -> 0 <= h -> 0 <= m -> 0 <= sec -> 0 <= ms ->
  dur_chain neg d h m sec ms = checked_i64 (dur_total neg d h m sec ms).
Proof.
  intros Hd Hh Hm Hs Hms. unfold dur_chain, dur_total.
  rewrite !dur_chain_link, dur_chain_end by (lia || reflexivity).
  rewrite signed_mul. f_equal. f_equal. lia.
Qed.

Lemma duration_parse_unfold s : s <> [] -> s <> [45%N] ->
  duration_parse s =
  match duration_regex s with
  | Some [cd; ch; cm; cs; cms] =>
      let? d := get_number cd in
      let? h := get_number ch in
      let? m := get_number cm in
      let? sec := get_number cs in
      let? ms := get_number cms in
      dur_chain (starts_with_minus s) d h m sec ms
  | _ => None
  end.
Proof.
  intros N1 N2. destruct s as [|c t]; [congruence|]. unfold duration_parse. rewrite match_minus.
  destruct (N.eqb_spec c 45) as [->|_]; [|reflexivity]. destruct t; [congruence|reflexivity].
Qed.

Lemma duration_regex_strip s : duration_regex s = match_groups duration_units (strip_minus s).
Proof. reflexivity. Qed.

Lemma render_nil : forall us caps,
  length caps = length us -> Forall cap_wf caps -> render us caps = [] -> Forall (fun c => c = None) caps.
Proof.
  induction us as [|u us IH]; intros caps L W E; destruct caps as [|c caps]; try discriminate; [constructor|].
  apply Forall_cons_iff in W as [Wc W]. cbn in E. apply app_eq_nil in E. destruct E as [E1 E2].
  constructor; [|apply IH; auto].
  destruct c as [ds|]; [|reflexivity]. cbn in E1. apply app_eq_nil in E1. destruct Wc. tauto.
Qed.

Lemma render_head : forall us caps c t,
  Forall cap_wf caps -> render us caps = c :: t -> is_ascii_digit c = true.
Proof.
  induction us as [|u us IH]; intros caps c t W E; [discriminate|].
  destruct caps as [|c0 caps]; [discriminate|]. apply Forall_cons_iff in W as [Wc W]. cbn in E.
  destruct c0 as [ds|]; cbn in E; [|eapply IH; eauto].
  destruct Wc as [N0 D]. destruct ds as [|d0 ds']; [congruence|]. cbn in E. inversion E; subst.
  apply all_ascii_digits_cons in D. tauto.
Qed.

Lemma render_some : forall us caps c t,
  render us caps = c :: t -> exists cap, In cap caps /\ cap <> None.
Proof.
  induction us as [|u us IH]; intros caps c t E; [discriminate|].
  destruct caps as [|[ds|] caps]; [discriminate| |].
  - exists (Some ds). split; [left; reflexivity|discriminate].
  - destruct (IH _ _ _ E) as (cap & I & N0). exists cap. split; [right; exact I|exact N0].
Qed.

Definition dur_spec (s : str) (v : Z) : Prop :=
  exists (neg : bool) (cd ch cm cs cms : option str),
    s = (if neg then [45%N] else []) ++ render duration_units [cd; ch; cm; cs; cms] /\
    Forall cap_wf [cd; ch; cm; cs; cms] /\
    (exists c, In c [cd; ch; cm; cs; cms] /\ c <> None) /\
    v = dur_total neg (cap_val cd) (cap_val ch) (cap_val cm) (cap_val cs) (cap_val cms) /\
    in_i64 v = true.

Lemma cap_wf_five cd ch cm cs cms :
  Forall cap_wf [cd; ch; cm; cs; cms] ->
  0 <= cap_val cd /\ 0 <= cap_val ch /\ 0 <= cap_val cm /\ 0 <= cap_val cs /\ 0 <= cap_val cms.
Proof.
  intros W. do 4 (split; [exact (cap_val_nonneg _ (Forall_inv W))|apply Forall_inv_tail in W]).
  exact (cap_val_nonneg _ (Forall_inv W)).
Qed.

Theorem duration_parse_sound s v : duration_parse s = Some v -> dur_spec s v.
Proof.
  intros H.
  assert (N1 : s <> []) by (intros ->; discriminate).
  assert (N2 : s <> [45%N]) by (intros ->; discriminate).
  rewrite (duration_parse_unfold s N1 N2) in H.
  destruct (duration_regex s) as [caps|] eqn:R; [|discriminate].
  destruct caps as [|cd [|ch [|cm [|cs [|cms [|x caps]]]]]]; try discriminate.
  rewrite duration_regex_strip in R. destruct (mg_sound _ _ _ R) as (E & W).
  destruct (cap_wf_five _ _ _ _ _ W) as (Pd & Ph & Pm & Ps & Pms).
  rewrite !get_number_spec in H. unfold obind in H.
  repeat match type of H with context [if ?c then _ else _] => destruct c; [cbv beta iota in H|discriminate] end.
  rewrite dur_chain_total in H by assumption. apply checked_some in H. destruct H as [Ev Iv].
  pose proof (minus_split s) as S. rewrite E in S.
  exists (starts_with_minus s), cd, ch, cm, cs, cms. repeat split; auto.
  destruct (render duration_units [cd; ch; cm; cs; cms]) as [|c t] eqn:Er.
  - destruct (starts_with_minus s); cbn in S; congruence.
  - exact (render_some _ _ _ _ Er).
Qed.

Theorem duration_parse_complete s v : dur_spec s v -> duration_parse s = Some v.
Proof.
  intros (neg & cd & ch & cm & cs & cms & Es & W & (c & Hin & Hc) & Ev & Iv).
  set (r := render duration_units [cd; ch; cm; cs; cms]) in *.
  assert (Rne : r <> []).
  { intros E. pose proof (render_nil duration_units [cd; ch; cm; cs; cms] eq_refl W E) as F.
    rewrite Forall_forall in F. apply Hc. apply F. exact Hin. }
  destruct r as [|r0 rt] eqn:Er; [congruence|].
  pose proof (render_head duration_units [cd; ch; cm; cs; cms] r0 rt W Er) as Hr0.
  destruct (minus_join neg r0 rt (proj1 (ascii_digit_not_sign r0 Hr0))) as [Sn Sm]. rewrite <- Es in Sn, Sm.
  assert (N1 : s <> []) by (subst s; destruct neg; discriminate).
  assert (N2 : s <> [45%N]) by (subst s; destruct neg; intros E; inversion E; subst; discriminate).
  rewrite (duration_parse_unfold s N1 N2), duration_regex_strip, Sm, <- Er. unfold r.
  rewrite (mg_complete duration_units [cd; ch; cm; cs; cms] _ duration_units_ok eq_refl W eq_refl).
  destruct (cap_wf_five _ _ _ _ _ W) as (Pd & Ph & Pm & Ps & Pms).
  assert (B := Iv). rewrite Ev in B. unfold dur_total in B. rewrite signed_mul in B.
  apply signed_magnitude in B; [|lia].
  rewrite !get_number_small by lia. cbn [obind]. rewrite Sn, dur_chain_total by assumption. apply checked_some. auto.
Qed.
