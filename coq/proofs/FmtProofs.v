(* All inductions over a text go through lex_cons, which says once what the lexer does on the
   next character. *)
From Cedar Require Import Fmt BaseFacts.
Local Open Scope nat_scope.
Local Open Scope list_scope.

(* lex takes one character from its text, or two *)
Lemma str_ind_le (P : str -> Prop) :
  P [] -> (forall c s, (forall t, length t <= length s -> P t) -> P (c :: s)) -> forall s, P s.
Proof.
  intros H0 HS. assert (H : forall n t, length t <= n -> P t).
  { induction n as [|n IH]; intros [|c t] L; try exact H0; [destruct (Nat.nle_succ_0 _ L)|].
    apply HS. intros u Lu. apply IH, (Nat.le_trans _ _ _ Lu), le_S_n, L. }
  intros s. apply (H (length s)), le_n.
Qed.

(* opening an item at c, at top or after an item closed before c: the mode after c, the rest of
   the text, the item that c completes.  Only punctuation looks at the next character `la`, and
   says whether it takes it too. *)
Definition open1 (c : N) : option mode :=
  if is_ws c then Some MTop
  else if (c =? 34)%N then Some (MStr [c] false)
  else if is_word_start c then Some (MWord [c])
  else if is_digit c then Some (MNum [c])
  else if (c =? 63)%N then Some (MSlot [c])
  else None.

Definition open_sym (c : N) (la : option N) : option (mode * bool * option item) :=
  match la with
  | Some d =>
      if ((c =? 47) && (d =? 47))%N then Some (MCom [d; c], true, None)
      else if is_double c d then Some (MTop, true, Some (ITok (TSym [c; d])))
      else if is_single c then Some (MTop, false, Some (ITok (TSym [c])))
      else None
  | None => if is_single c then Some (MTop, false, Some (ITok (TSym [c]))) else None
  end.

Definition start (c : N) (s' : str) : option (mode * str * option item) :=
  match open1 c with
  | Some m => Some (m, s', None)
  | None =>
      match open_sym c (hd_error s') with
      | Some (m, two, e) => Some (m, if two then tl s' else s', e)
      | None => None
      end
  end.

Ltac case_tests :=
  repeat (match goal with
          | |- (if ?b then _ else _) = _ => destruct b
          | |- (if ?b then _ else _) = _ -> _ => destruct b
          end; cbn beta iota).

Lemma lex_nil m out : lex m [] out = option_map (@rev item) (flush m out).
Proof. reflexivity. Qed.

Lemma lex_cons m c s' out :
  lex m (c :: s') out =
  match continue m c with
  | Fail => None
  | Absorb m' e => lex m' s' (push e out)
  | Restart e =>
      match start c s' with
      | Some (m', s'', e') => lex m' s'' (push e' (push e out))
      | None => None
      end
  end.
Proof.
  unfold start, open1. cbn [lex]. destruct (continue m c); [reflexivity| |reflexivity].
  case_tests; try reflexivity. destruct s'; cbn [hd_error tl open_sym]; case_tests; reflexivity.
Qed.

Lemma start_shorter {c s' m' s'' e'} : start c s' = Some (m', s'', e') -> length s'' <= length s'.
Proof.
  unfold start. destruct (open1 c); [intros [= <- <- <-]; apply le_n|].
  destruct (open_sym c (hd_error s')) as [[[m two] e]|]; [|discriminate]. intros [= <- <- <-].
  destruct two; [|apply le_n]. destruct s'; cbn; repeat constructor.
Qed.

Definition prefixed (acc : list item) (r : option (list item)) : option (list item) :=
  option_map (app (rev acc)) r.

Lemma push_app e out acc : push e (out ++ acc) = push e out ++ acc.
Proof. destruct e; reflexivity. Qed.

Lemma flush_app m out acc :
  option_map (@rev item) (flush m (out ++ acc)) = prefixed acc (option_map (@rev item) (flush m out)).
Proof.
  assert (E : flush m (out ++ acc) = option_map (fun l => l ++ acc) (flush m out))
    by (destruct m; cbn; case_tests; reflexivity).
  rewrite E. destruct (flush m out); cbn; [rewrite rev_app_distr|]; reflexivity.
Qed.

Lemma lex_app s : forall m out acc, lex m s (out ++ acc) = prefixed acc (lex m s out).
Proof.
  induction s as [|c s' IH] using str_ind_le; intros m out acc; [apply flush_app|].
  rewrite !lex_cons. destruct (continue m c) as [m' e|e|]; [| |reflexivity].
  - rewrite push_app. apply IH, le_n.
  - destruct (start c s') as [[[m' s''] e']|] eqn:St; [|reflexivity].
    rewrite !push_app. apply IH, (start_shorter St).
Qed.

Lemma is_double_nl c : is_double c 10 = false.
Proof. unfold is_double. cbn. rewrite !andb_false_r. reflexivity. Qed.

Lemma open_sym_nl c : open_sym c (Some 10%N) = open_sym c None.
Proof. unfold open_sym. rewrite is_double_nl, andb_false_r. reflexivity. Qed.

Lemma start_join {c s1} s2 {m' s'' e'} :
  start c s1 = Some (m', s'', e') -> start c (s1 ++ 10%N :: s2) = Some (m', s'' ++ 10%N :: s2, e').
Proof.
  unfold start. destruct (open1 c); [intros [= <- <- <-]; reflexivity|].
  destruct s1 as [|d s1']; cbn [app hd_error tl].
  - rewrite open_sym_nl. unfold open_sym. destruct (is_single c); intros [= <- <- <-]; reflexivity.
  - destruct (open_sym c (Some d)) as [[[m two] e]|]; [|discriminate]. intros [= <- <- <-].
    destruct two; reflexivity.
Qed.

Lemma lex_nl {m} s2 {out out'} : flush m out = Some out' -> lex m (10%N :: s2) out = lex MTop s2 out'.
Proof.
  rewrite lex_cons. destruct m; cbn; case_tests; intros [= <-]; reflexivity.
Qed.

Lemma lex_join s2 : forall s1 m out l1,
  lex m s1 out = Some l1 -> lex m (s1 ++ 10%N :: s2) out = option_map (app l1) (clex s2).
Proof.
  induction s1 as [|c s1' IH] using str_ind_le; intros m out l1 H; cbn [app].
  - rewrite lex_nil in H. destruct (flush m out) as [out'|] eqn:F; [|discriminate]. injection H as <-.
    rewrite (lex_nl s2 F). apply (lex_app s2 MTop [] out').
  - rewrite lex_cons in H |- *. destruct (continue m c) as [m' e|e|]; [| |discriminate].
    + apply IH; [apply le_n|exact H].
    + destruct (start c s1') as [[[m' s''] e']|] eqn:St; [|discriminate].
      rewrite (start_join s2 St). apply IH; [exact (start_shorter St)|exact H].
Qed.

Lemma clex_join s1 s2 l1 l2 :
  clex s1 = Some l1 -> clex s2 = Some l2 -> clex (s1 ++ 10%N :: s2) = Some (l1 ++ l2).
Proof. intros H1 H2. unfold clex at 1. rewrite (lex_join s2 s1 MTop [] l1 H1), H2. reflexivity. Qed.

Lemma token_eqb_eq a b : token_eqb a b = true <-> a = b.
Proof.
  split.
  - destruct a, b; cbn; intros H; try discriminate; apply str_eqb_eq in H; subst; reflexivity.
  - intros <-. destruct a; cbn; apply str_eqb_refl.
Qed.

Lemma item_eqb_eq a b : item_eqb a b = true <-> a = b.
Proof.
  split.
  - destruct a, b; cbn; intros H; try discriminate;
      [apply token_eqb_eq in H | apply str_eqb_eq in H]; subst; reflexivity.
  - intros <-. destruct a; cbn; [apply token_eqb_eq; reflexivity | apply str_eqb_refl].
Qed.

Lemma items_eqb_eq a : forall b, items_eqb a b = true <-> a = b.
Proof.
  induction a as [|x a IH]; intros [|y b]; cbn; split; intros H; try discriminate; try reflexivity.
  - apply andb_prop in H as [H1 H2]. apply item_eqb_eq in H1. apply IH in H2. subst; reflexivity.
  - inversion H; subst. apply andb_true_intro; split; [apply item_eqb_eq | apply IH]; reflexivity.
Qed.

Lemma fmt_ok_view {X} (g : list item -> X) a b :
  fmt_ok a b -> option_map g (clex b) = option_map g (clex a) /\ option_map g (clex a) <> None.
Proof. intros [l [Ha Hb]]. rewrite Ha, Hb. split; [reflexivity | discriminate]. Qed.

Lemma fmt_ok_refl a : clex a <> None -> fmt_ok a a.
Proof.
  unfold fmt_ok. destruct (clex a) as [l|].
  - intros _. exists l. split; reflexivity.
  - intros H. contradiction H. reflexivity.
Qed.

Lemma fmt_ok_sym a b : fmt_ok a b -> fmt_ok b a.
Proof. intros [l [Ha Hb]]. exists l; split; assumption. Qed.

Lemma fmt_ok_trans a b c : fmt_ok a b -> fmt_ok b c -> fmt_ok a c.
Proof.
  intros [l [Ha Hb]] [l' [Hb' Hc]]. rewrite Hb in Hb'. inversion Hb'; subst. exists l'; split; assumption.
Qed.

(* F2 at comment-free inputs only: `canon` (FmtCanonProofs.v) has no more *)
Lemma idempotent_comment_free (f : str -> str) :
  (forall a, clex a <> None -> comment_free a -> fmt_ok a (f a)) ->
  (forall a b, comment_free a -> comment_free b -> tokens a = tokens b -> f a = f b) ->
  forall a, clex a <> None -> comment_free a -> f (f a) = f a.
Proof.
  intros F2 F1 a Ha Hc. pose proof (F2 a Ha Hc) as H.
  destruct (fmt_ok_view comments_of _ _ H) as [Hcm _]. destruct (fmt_ok_view tokens_of _ _ H) as [Htk _].
  symmetry. apply F1; [exact Hc | | symmetry; exact Htk].
  unfold comment_free, comments. rewrite Hcm. exact Hc.
Qed.

Section Formatter.
  (* any formatter (one width/indent configuration); F2 and F1 are not proved of the implementation,
     the check validates them on every run *)
  Variable f : str -> str.
  Hypothesis F2 : forall a, clex a <> None -> fmt_ok a (f a).
  Hypothesis F1 : forall a b, comment_free a -> comment_free b -> tokens a = tokens b -> f a = f b.

  Fixpoint iter (n : nat) (a : str) : str := match n with O => a | S n' => f (iter n' a) end.

  Lemma idempotent a : clex a <> None -> comment_free a -> f (f a) = f a.
  Proof. apply idempotent_comment_free; [intros b Hb _; exact (F2 b Hb) | exact F1]. Qed.
End Formatter.
