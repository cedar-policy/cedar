(* C07 — extension types (decimal, ip, datetime, duration) compute exact results.
   Model: coq/model/ExtParse.v (transcribed from extensions/{decimal,ipaddr,datetime}.rs).
   Lemmas: coq/proofs/Ext*Proofs.v.

   The theorems determine the model's result for all strings / all values, except those named
   _partial, which say less:
     c07_datetime_spec_partial — soundness direction only: an accepted string has one of the five
                                 documented shapes with a valid civil date, time and offset and
                                 the value is the exact millisecond count; the converse (every
                                 such string is accepted) is NOT proved.
     c07_ip_spec_partial       — soundness for IPv4 results only (dotted quad without leading
                                 zeros, optional /0../32 without leading zeros, value exact and
                                 well formed); completeness and the IPv6 text forms are NOT proved
                                 (IPv6 values are therefore only ASSUMED well formed, `ip_wf`, in
                                 c07_in_range / c07_loopback / c07_multicast).
     c07_in_range_partial, c07_duration_range_partial — small facts about the same functions:
                                 isInRange is reflexive and separates the families (no `ip_wf`
                                 needed); every result of one checked accumulation step of the
                                 duration parser is an i64.
   No explicit civil_from_days function is defined; c07_days_from_civil_injective states that the
   day number determines the valid date.  The three theorems about days_from_civil do not use
   their hypothesis 0 <= y: the lemmas of ExtCivilProofs.v behind them hold for every year. *)
From Coq Require QArith.
From Cedar Require Import ExtParse ValueProofs.
From Cedar Require Import ExtParseProofs ExtIpProofs ExtDurationProofs ExtDatetimeProofs.
From Cedar Require Import ExtIpParseProofs ExtCivilProofs.
Open Scope Z_scope.

(* decimal(s) is accepted iff s = ['-'] digits '.' 1..4 digits (ASCII) and the exact value
   ±(int·10^4 + frac·10^(4-|frac|)) is an i64; then that is the value; everything else errors *)
Theorem c07_decimal_spec : forall s v, decimal_parse s = Some v <-> dec_spec s v.
Proof.
  intros s v. split; [apply decimal_parse_sound | apply decimal_parse_complete]; apply is_nd_ok.
Qed.
Print Assumptions c07_decimal_spec.

(* the Unicode table behind the regex's `\d` cannot influence the result *)
Theorem c07_decimal_digit_table_irrelevant : forall nd1 nd2 s,
  nd_ok nd1 -> nd_ok nd2 -> decimal_parse_with nd1 s = decimal_parse_with nd2 s.
Proof. exact decimal_parse_nd_irrelevant. Qed.
Print Assumptions c07_decimal_digit_table_irrelevant.

Theorem c07_decimal_constructor : forall s,
  call_xfn (s2str "decimal") [VString s] =
  match decimal_parse s with Some v => Ok (dec v) | None => Err ErrExt end.
Proof. intros s. rewrite (call_named XDecimal). cbn. destruct (decimal_parse s); reflexivity. Qed.
Print Assumptions c07_decimal_constructor.

(* the four comparisons are the comparisons of the represented rationals z/10^4 *)
Theorem c07_decimal_cmp : forall x y,
  call_xfn (s2str "lessThan") [dec x; dec y] = Ok (VBool (x <? y)) /\
  call_xfn (s2str "lessThanOrEqual") [dec x; dec y] = Ok (VBool (x <=? y)) /\
  call_xfn (s2str "greaterThan") [dec x; dec y] = Ok (VBool (x >? y)) /\
  call_xfn (s2str "greaterThanOrEqual") [dec x; dec y] = Ok (VBool (x >=? y)) /\
  ((x <? y) = true <-> QArith_base.Qlt (dec_rat x) (dec_rat y)) /\
  ((x <=? y) = true <-> QArith_base.Qle (dec_rat x) (dec_rat y)) /\
  ((x >? y) = true <-> QArith_base.Qlt (dec_rat y) (dec_rat x)) /\
  ((x >=? y) = true <-> QArith_base.Qle (dec_rat y) (dec_rat x)).
Proof.
  intros x y.
  rewrite (call_named XLessThan), (call_named XLessThanOrEqual).
  rewrite (call_named XGreaterThan), (call_named XGreaterThanOrEqual).
  do 4 (split; [reflexivity|]).
  split; [exact (iff_trans (Z.ltb_lt x y) (iff_sym (dec_rat_lt x y)))|].
  split; [exact (iff_trans (Z.leb_le x y) (iff_sym (dec_rat_le x y)))|].
  split; [exact (iff_trans (Z.gtb_lt x y) (iff_sym (dec_rat_lt y x)))|].
  exact (iff_trans (Z.geb_le x y) (iff_sym (dec_rat_le y x))).
Qed.
Print Assumptions c07_decimal_cmp.

(* duration(s) is accepted iff s = ['-'] followed by the ordered optional groups
   digits"d" digits"h" digits"m" digits"s" digits"ms" (at least one), and the exact value
   +-(d*86400000 + h*3600000 + m*60000 + s*1000 + ms) is an i64; then that is the value;
   everything else (shape or overflow) is the extension error *)
Theorem c07_duration_spec : forall s v, duration_parse s = Some v <-> dur_spec s v.
Proof. intros s v. split; [apply duration_parse_sound | apply duration_parse_complete]. Qed.
Print Assumptions c07_duration_spec.

(* offset / durationSince: the exact sum / difference, the extension error iff outside i64 *)
Theorem c07_offset_exact : forall t d,
  call_xfn (s2str "offset") [dtv t; durv d] = if in_i64 (t + d) then Ok (dtv (t + d)) else Err ErrExt.
Proof.
  intros t d. rewrite (call_named XOffset). cbn. rewrite dt_offset_exact.
  destruct (in_i64 (t + d)); reflexivity.
Qed.
Print Assumptions c07_offset_exact.

Theorem c07_duration_since_exact : forall a b,
  call_xfn (s2str "durationSince") [dtv a; dtv b] = if in_i64 (a - b) then Ok (durv (a - b)) else Err ErrExt.
Proof.
  intros a b. rewrite (call_named XDurationSince). cbn. rewrite dt_duration_since_exact.
  destruct (in_i64 (a - b)); reflexivity.
Qed.
Print Assumptions c07_duration_since_exact.

(* toDate: the start of the day containing t (floor semantics, also for negative epochs);
   the error iff that instant is below i64::MIN *)
Theorem c07_to_date_exact : forall t, in_i64 t = true ->
  let day_start := day_ms * (t / day_ms) in
  day_start <= t < day_start + day_ms /\
  call_xfn (s2str "toDate") [dtv t] = if i64_min <=? day_start then Ok (dtv day_start) else Err ErrExt.
Proof.
  intros t Ht. destruct (dt_to_date_exact t Ht) as [B E]. cbv zeta in *. split; [exact B|].
  rewrite (call_named XToDate). cbn [apply_xfn unary dtv as_datetime bind]. rewrite E.
  destruct (i64_min <=? day_ms * (t / day_ms)); reflexivity.
Qed.
Print Assumptions c07_to_date_exact.

Theorem c07_to_time_exact : forall t,
  call_xfn (s2str "toTime") [dtv t] = Ok (durv (t mod day_ms)) /\ 0 <= t mod day_ms < day_ms.
Proof.
  intros t. destruct (dt_to_time_exact t) as [E B]. rewrite E in B. split; [|exact B].
  rewrite (call_named XToTime). cbn [apply_xfn unary dtv as_datetime bind]. rewrite E. reflexivity.
Qed.
Print Assumptions c07_to_time_exact.

Theorem c07_to_date_plus_to_time : forall t d, dt_to_date t = Some d -> d + dt_to_time t = t.
Proof.
  intros t d. unfold dt_to_date. destruct (in_i64 _); [|discriminate]. intros [= <-].
  rewrite (proj1 (dt_to_time_exact t)). apply Z.sub_add.
Qed.
Print Assumptions c07_to_date_plus_to_time.

(* toMilliseconds..toDays: truncation toward zero of the exact quotient; never an overflow *)
Theorem c07_duration_to_exact : forall ms, in_i64 ms = true ->
  call_xfn (s2str "toMilliseconds") [durv ms] = Ok (VLong ms) /\
  call_xfn (s2str "toSeconds") [durv ms] = Ok (VLong (Z.quot ms 1000)) /\
  call_xfn (s2str "toMinutes") [durv ms] = Ok (VLong (Z.quot ms 60000)) /\
  call_xfn (s2str "toHours") [durv ms] = Ok (VLong (Z.quot ms 3600000)) /\
  call_xfn (s2str "toDays") [durv ms] = Ok (VLong (Z.quot ms 86400000)) /\
  in_i64 (Z.quot ms 1000) = true /\ in_i64 (Z.quot ms 60000) = true /\
  in_i64 (Z.quot ms 3600000) = true /\ in_i64 (Z.quot ms 86400000) = true.
Proof.
  intros ms H. destruct (dur_to_exact ms) as (A & B & C & D).
  rewrite (call_named XToMilliseconds), (call_named XToSeconds), (call_named XToMinutes).
  rewrite (call_named XToHours), (call_named XToDays).
  cbn. rewrite A, B, C, D.
  repeat split; try reflexivity; apply quot_in_i64; auto; reflexivity.
Qed.
Print Assumptions c07_duration_to_exact.

Theorem c07_rel_exact : forall a b,
  rel_apply RLess (dtv a) (dtv b) = Ok (VBool (a <? b)) /\
  rel_apply RLessEq (dtv a) (dtv b) = Ok (VBool (a <=? b)) /\
  rel_apply RLess (durv a) (durv b) = Ok (VBool (a <? b)) /\
  rel_apply RLessEq (durv a) (durv b) = Ok (VBool (a <=? b)).
Proof. intros a b. repeat split; reflexivity. Qed.
Print Assumptions c07_rel_exact.

(* == on extension values is equality of the represented value (the value type carries no
   constructor string at all) *)
Theorem c07_eq_by_value : forall x y : ext,
  rel_apply REq (VExt x) (VExt y) = Ok (VBool true) <-> x = y.
Proof.
  intros x y. cbn. rewrite <- ext_eqb_eq.
  destruct (ext_eqb x y); split; intros H; try reflexivity; discriminate.
Qed.
Print Assumptions c07_eq_by_value.

(* days_from_civil: 1970-01-01 is day 0, and the successor of every valid date (month ends,
   year ends, leap years) is a valid date exactly one day later *)
Theorem c07_days_from_civil_correct :
  days_from_civil 1970 1 1 = 0 /\
  forall y m d, 0 <= y -> valid_ymd y m d = true ->
    let '(y', m', d') := next_date y m d in
    valid_ymd y' m' d' = true /\ days_from_civil y' m' d' = days_from_civil y m d + 1.
Proof. exact (conj epoch_day_zero (fun y m d _ => days_from_civil_next y m d)). Qed.
Print Assumptions c07_days_from_civil_correct.

Theorem c07_days_from_civil_monotone : forall y m d y' m' d',
  0 <= y -> valid_ymd y m d = true -> valid_ymd y' m' d' = true ->
  (y < y' \/ (y = y' /\ (m < m' \/ (m = m' /\ d < d')))) ->
  days_from_civil y m d < days_from_civil y' m' d'.
Proof. intros y m d y' m' d' _. apply days_from_civil_monotone. Qed.
Print Assumptions c07_days_from_civil_monotone.

Theorem c07_days_from_civil_injective : forall y m d y' m' d',
  0 <= y -> 0 <= y' -> valid_ymd y m d = true -> valid_ymd y' m' d' = true ->
  days_from_civil y m d = days_from_civil y' m' d' -> y = y' /\ m = m' /\ d = d'.
Proof. intros y m d y' m' d' _ _. apply days_from_civil_injective. Qed.
Print Assumptions c07_days_from_civil_injective.

(* isInRange <-> same family and every address sharing a's first prefix bits also shares b's
   (includes /0, /32, /128, where the code relies on checked_shl/shr returning None) *)
Theorem c07_in_range : forall a b, ip_wf a -> ip_wf b ->
  (ip_is_in_range a b = true <->
   ip_v6 a = ip_v6 b /\ forall x, in_ip_range a x -> in_ip_range b x).
Proof. exact ip_in_range_iff. Qed.
Print Assumptions c07_in_range.

(* isLoopback = inclusion in 127.0.0.0/8 resp. ::1/128; isMulticast = inclusion in 224.0.0.0/4 resp. ff00::/8 *)
Theorem c07_loopback : forall a, ip_wf a ->
  ip_is_loopback a = ip_is_in_range a (loopback_block (ip_v6 a)).
Proof. exact ip_loopback_is_range. Qed.
Print Assumptions c07_loopback.

Theorem c07_multicast : forall a, ip_wf a ->
  ip_is_multicast a = ip_is_in_range a (multicast_block (ip_v6 a)).
Proof. exact ip_multicast_is_range. Qed.
Print Assumptions c07_multicast.

Theorem c07_datetime_spec_partial : forall s ms, datetime_parse s = Some ms -> dt_spec s ms.
Proof. exact datetime_parse_sound. Qed.
Print Assumptions c07_datetime_spec_partial.

Theorem c07_ip_spec_partial : forall s a, ip_parse s = Some a -> ip_v6 a = false ->
  exists O1 O2 O3 O4 o1 o2 o3 o4,
    dec_field 3 255 O1 o1 /\ dec_field 3 255 O2 o2 /\ dec_field 3 255 O3 o3 /\ dec_field 3 255 O4 o4 /\
    ip_addr a = (((o1 * 256 + o2) * 256 + o3) * 256 + o4)%N /\
    ((s = O1 ++ 46%N :: O2 ++ 46%N :: O3 ++ 46%N :: O4 /\ ip_prefix a = 32%N) \/
     exists P, s = (O1 ++ 46%N :: O2 ++ 46%N :: O3 ++ 46%N :: O4) ++ 47%N :: P /\
               dec_field 2 32 P (ip_prefix a)) /\
    ip_wf a.
Proof. exact ip_parse_v4_sound. Qed.
Print Assumptions c07_ip_spec_partial.

Theorem c07_in_range_partial : forall a b,
  ip_is_in_range a a = true /\ (ip_is_in_range a b = true -> ip_v6 a = ip_v6 b).
Proof.
  intros a b. unfold ip_is_in_range. split.
  - rewrite Bool.eqb_reflx, !N.leb_refl. reflexivity.
  - destruct (Bool.eqb (ip_v6 a) (ip_v6 b)) eqn:E; [|discriminate].
    intros _. apply Bool.eqb_prop. exact E.
Qed.
Print Assumptions c07_in_range_partial.

Theorem c07_duration_range_partial : forall neg x y mul r,
  dur_checked_op neg x y mul = Some r -> in_i64 r = true.
Proof.
  intros neg x y mul r. unfold dur_checked_op. destruct (i64_max <? y); [discriminate|].
  destruct (negb (in_i64 (y * mul))); [discriminate|].
  destruct (in_i64 (if neg then x - y * mul else x + y * mul)) eqn:E; [|discriminate].
  intros [= <-]. exact E.
Qed.
Print Assumptions c07_duration_range_partial.

Example ex_decimal : decimal_parse (s2str "-1.50") = Some (-15000).
Proof. vm_compute. reflexivity. Qed.
Example ex_decimal_max :
  decimal_parse (s2str "922337203685477.5807") = Some 9223372036854775807.
Proof. vm_compute. reflexivity. Qed.
Example ex_decimal_over : decimal_parse (s2str "922337203685477.5808") = None.
Proof. vm_compute. reflexivity. Qed.
Example ex_decimal_5 : decimal_parse (s2str "1.00000") = None.
Proof. vm_compute. reflexivity. Qed.
Example ex_dec_spec : dec_spec (s2str "-1.50") (-15000).
Proof. apply c07_decimal_spec. vm_compute. reflexivity. Qed.
Example ex_datetime :
  datetime_parse (s2str "1969-12-31T23:59:59.999+0100") = Some (-3600001).
Proof. vm_compute. reflexivity. Qed.
Example ex_leap :
  valid_ymd 1900 2 29 = false /\
  valid_ymd 2000 2 29 = true /\
  next_date 2024 2 29 = (2024, 3, 1) /\
  days_from_civil 2024 2 29 = 19782.
Proof. vm_compute. auto. Qed.
Example ex_duration :
  duration_parse (s2str "-9223372036854775808ms") = Some (-9223372036854775808) /\
  duration_parse (s2str "1d2h3m4s5ms") = Some 93784005 /\
  duration_parse (s2str "1h1d") = None.
Proof. vm_compute. auto. Qed.
Example ex_ip :
  ip_parse (s2str "::1/64") = Some (mkIp true 1 64) /\
  ip_parse (s2str "::ffff:1.2.3.4") = None /\
  ip_parse (s2str "10.0.0.0/032") = None.
Proof. vm_compute. auto. Qed.
Example ex_to_date_neg :
  dt_to_date (-1) = Some (-86400000) /\
  dt_to_time (-1) = 86399999 /\
  dt_to_date (-9223372036854775808) = None.
Proof. vm_compute. auto. Qed.
Example ex_dur_spec : dur_spec (s2str "-1d2h") (-93600000).
Proof. apply c07_duration_spec. vm_compute. reflexivity. Qed.
Example ex_in_range :
  ip_wf (mkIp false 167772165 8) /\
  ip_is_in_range (mkIp false 167772165 8) (mkIp false 167772160 8) = true
  /\ ip_is_in_range (mkIp true 0 0) (mkIp true 0 127) = false /\
  ip_is_loopback (mkIp false 2130706433 32) = true.
Proof. vm_compute. repeat split; auto; discriminate. Qed.
Example ex_dt_spec : exists ms,
  datetime_parse (s2str "2024-02-29T23:59:59.999-2359") = Some ms /\
  dt_spec (s2str "2024-02-29T23:59:59.999-2359") ms.
Proof.
  eexists. split; [vm_compute; reflexivity|].
  apply c07_datetime_spec_partial. vm_compute. reflexivity.
Qed.
Example ex_ip_v4 : ip_parse (s2str "10.0.0.5/8") = Some (mkIp false 167772165 8).
Proof. vm_compute. reflexivity. Qed.
