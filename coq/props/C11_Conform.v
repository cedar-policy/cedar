(* C11 — Schema conformance checks accept exactly conformant requests, contexts and entities,
   through every entry point that takes a schema.

   The checkers (model/Conform.v part 1, transcribed from conformance.rs / coreschema.rs / types.rs)
   are proved equivalent to the declarative specification ValueConforms / EntityConforms /
   RequestConforms (model/Conform.v part 3, written from the property text) in
   proofs/ConformProofs.v.  Values, contexts and requests: for all schemas.  Entities: under
   `schema_wf sch = true`, the representation invariants of a resolved schema (attribute maps
   duplicate-free at every depth; declared types are types a schema can produce; action ids have
   basename Action) — evaluated on every generated schema by the check.

   Full: c11_value, c11_entity, c11_request, c11_context, c11_checkers_agree,
         c11_no_schematype_panic, all c11_reject_* and c11_enum_id_invalid, c11_entry_add,
         c11_entry_upsert, c11_entry_from_entities, c11_entry_request_new, c11_entry_context_validate,
         c11_entry_same_checker.
   Partial: c11_entry_json_partial — the JSON entry points are proved SOUND (accept => conformant, same
         checker after the parse); that the type-directed parse never rejects a conformant datum is
         compared by correspondence only (the model answers Unmodelled on implicit escapes).
   Refuted: c11_context_from_json_refuted, c11_context_from_json_refuted_enum — the faithful model of
         Context::from_json_* accepts a datum that violates the schema (finding F-d, replayed on the
         implementation by the check). *)
From Coq Require Import String.
From Cedar Require Import Conform ConformProofs.
Open Scope string_scope.

Theorem c11_value :
  forall sch v t, conf_value sch v t = true <-> ValueConforms sch v t.
Proof. exact conf_value_iff. Qed.
Print Assumptions c11_value.

Theorem c11_entity :
  forall sch e, schema_wf sch = true -> (conf_entity sch e = None <-> EntityConforms sch e).
Proof. exact conf_entity_iff. Qed.
Print Assumptions c11_entity.

Theorem c11_request :
  forall sch q, conf_request sch q = None <-> RequestConforms sch q.
Proof. exact conf_request_iff. Qed.
Print Assumptions c11_request.

Theorem c11_context :
  forall sch a ctx, conf_context sch a ctx = None <-> ContextConforms sch a ctx.
Proof. exact conf_context_iff. Qed.
Print Assumptions c11_context.

(* the entity checker (SchemaType route) and the context checker (validator Type route) decide the
   same typing relation on every declared type *)
Theorem c11_checkers_agree :
  forall t, decl_ty_ok t = true ->
  exists st, to_sty t = Some st /\ forall v, tc_value_st v st = tc_value_ty v t.
Proof. exact st_agrees. Qed.
Print Assumptions c11_checkers_agree.

(* the Rust `expect` on the Type -> SchemaType conversion cannot fire on a well-formed schema *)
Theorem c11_no_schematype_panic :
  forall sch e, schema_wf sch = true -> conf_entity sch e <> Some CSchemaType.
Proof. exact conf_entity_not_schematype. Qed.
Print Assumptions c11_no_schematype_panic.

Theorem c11_reject_wrong_type :
  forall sch v t, ~ TypeConforms v t -> conf_value sch v t = false.
Proof.
  intros sch v t H. apply conf_value_false. intros [Ht _]. exact (H Ht).
Qed.
Print Assumptions c11_reject_wrong_type.

(* any fault inside a set element / a record field rejects the enclosing value: any nesting depth *)
Theorem c11_reject_nested_in_set :
  forall sch x l e, In x l -> conf_value sch x e = false -> conf_value sch (VSet l) (TSet (Some e)) = false.
Proof.
  intros sch x l e Hin H. apply conf_value_false. apply conf_value_false in H. intros [Ht Hu]. apply H. split.
  - exact (proj1 (TypeConforms_set l e) Ht x Hin).
  - exact (proj1 (UidsValid_set sch l) Hu x Hin).
Qed.
Print Assumptions c11_reject_nested_in_set.

Theorem c11_reject_nested_in_record :
  forall sch k x kvs attrs open t r,
    In (k, x) kvs -> lookup k attrs = Some (t, r) -> conf_value sch x t = false ->
    conf_value sch (VRecord kvs) (TRecord attrs open) = false.
Proof.
  intros sch k x kvs attrs open t r Hin Hl H.
  apply conf_value_false. apply conf_value_false in H. intros [Ht Hu]. apply H. split.
  - apply TypeConforms_record in Ht as (_ & Hty & _). exact (Hty k x Hin t r Hl).
  - exact (proj1 (UidsValid_record sch kvs) Hu k x Hin).
Qed.
Print Assumptions c11_reject_nested_in_record.

Theorem c11_reject_missing_required_nested :
  forall sch k t kvs attrs open,
    In (k, (t, true)) attrs -> has_key k kvs = false -> conf_value sch (VRecord kvs) (TRecord attrs open) = false.
Proof.
  intros sch k t kvs attrs open Hin Hk. apply conf_value_false. intros [Ht _].
  apply TypeConforms_record in Ht as (Hreq & _). rewrite (Hreq k t Hin) in Hk. discriminate Hk.
Qed.
Print Assumptions c11_reject_missing_required_nested.

Theorem c11_reject_missing_required :
  forall sch, schema_wf sch = true -> forall u d i,
    is_action_type (uty u) = false -> find_etype sch (uty u) = Some i ->
    forall k, In k (required_attrs i) -> has_key k (eattrs d) = false -> conf_entity sch (u, d) <> None.
Proof.
  intros sch Hwf u d i Hna Hf k Hin Hk Hc.
  apply (entity_conforms_inv sch u d i Hwf Hna Hf) in Hc as (_ & H & _). specialize (H _ Hin). congruence.
Qed.
Print Assumptions c11_reject_missing_required.

Theorem c11_reject_undeclared_attr_nested :
  forall sch k x kvs attrs,
    In (k, x) kvs -> lookup k attrs = None -> conf_value sch (VRecord kvs) (TRecord attrs false) = false.
Proof.
  intros sch k x kvs attrs Hin Hl. apply conf_value_false. intros [Ht _].
  apply TypeConforms_record in Ht as (_ & _ & Hext). specialize (Hext eq_refl k x Hin).
  unfold has_key in Hext. rewrite Hl in Hext. discriminate Hext.
Qed.
Print Assumptions c11_reject_undeclared_attr_nested.

Theorem c11_reject_undeclared_attr :
  forall sch, schema_wf sch = true -> forall u d i,
    is_action_type (uty u) = false -> find_etype sch (uty u) = Some i ->
    forall k v, In (k, v) (eattrs d) -> lookup k (et_attrs i) = None -> et_open i = false ->
    conf_entity sch (u, d) <> None.
Proof.
  intros sch Hwf u d i Hna Hf k v Hin Hl Ho Hc.
  apply (entity_conforms_inv sch u d i Hwf Hna Hf) in Hc as (_ & _ & H & _). specialize (H _ _ Hin).
  rewrite Hl in H. destruct H. congruence.
Qed.
Print Assumptions c11_reject_undeclared_attr.

(* the value may be at fault at any depth: c11_reject_nested_in_set / c11_reject_nested_in_record *)
Theorem c11_reject_attr_wrong_type :
  forall sch, schema_wf sch = true -> forall u d i,
    is_action_type (uty u) = false -> find_etype sch (uty u) = Some i ->
    forall k v t r, In (k, v) (eattrs d) -> lookup k (et_attrs i) = Some (t, r) -> conf_value sch v t = false ->
    conf_entity sch (u, d) <> None.
Proof.
  intros sch Hwf u d i Hna Hf k v t r Hin Hl Hv Hc.
  apply (entity_conforms_inv sch u d i Hwf Hna Hf) in Hc as (_ & _ & H & _). specialize (H _ _ Hin).
  rewrite Hl in H. apply conf_value_false in Hv. exact (Hv H).
Qed.
Print Assumptions c11_reject_attr_wrong_type.

Theorem c11_reject_tag_wrong_type :
  forall sch, schema_wf sch = true -> forall u d i,
    is_action_type (uty u) = false -> find_etype sch (uty u) = Some i ->
    forall k v t, In (k, v) (etags d) -> et_tags i = Some t -> conf_value sch v t = false ->
    conf_entity sch (u, d) <> None.
Proof.
  intros sch Hwf u d i Hna Hf k v t Hin Ht Hv Hc.
  apply (entity_conforms_inv sch u d i Hwf Hna Hf) in Hc as (_ & _ & _ & _ & H). specialize (H _ _ Hin).
  rewrite Ht in H. apply conf_value_false in Hv. exact (Hv H).
Qed.
Print Assumptions c11_reject_tag_wrong_type.

Theorem c11_reject_tag_on_tagless_type :
  forall sch, schema_wf sch = true -> forall u d i,
    is_action_type (uty u) = false -> find_etype sch (uty u) = Some i ->
    forall k v, In (k, v) (etags d) -> et_tags i = None -> conf_entity sch (u, d) <> None.
Proof.
  intros sch Hwf u d i Hna Hf k v Hin Ht Hc.
  apply (entity_conforms_inv sch u d i Hwf Hna Hf) in Hc as (_ & _ & _ & _ & H). specialize (H _ _ Hin).
  rewrite Ht in H. exact H.
Qed.
Print Assumptions c11_reject_tag_on_tagless_type.

Theorem c11_reject_bad_ancestor_type :
  forall sch, schema_wf sch = true -> forall u d i,
    is_action_type (uty u) = false -> find_etype sch (uty u) = Some i ->
    forall a, In a (eancestors d) -> ~ PermittedAncestorType sch (uty u) (uty a) -> conf_entity sch (u, d) <> None.
Proof.
  intros sch Hwf u d i Hna Hf a Hin Hn Hc.
  apply (entity_conforms_inv sch u d i Hwf Hna Hf) in Hc as (_ & _ & _ & H & _). exact (Hn (proj2 (H _ Hin))).
Qed.
Print Assumptions c11_reject_bad_ancestor_type.

Theorem c11_reject_enum_id_in_value :
  forall sch u v t i ch,
    UidIn u v -> find_etype sch (uty u) = Some i -> et_enum i = Some ch -> ~ In (ueid u) ch ->
    conf_value sch v t = false.
Proof.
  intros sch u v t i ch Hin Hf He Hn. apply conf_value_false. intros [_ Hu].
  exact (Hn (proj1 (Hu u Hin) i ch Hf He)).
Qed.
Print Assumptions c11_reject_enum_id_in_value.

Theorem c11_enum_id_invalid :
  forall sch u i ch, find_etype sch (uty u) = Some i -> et_enum i = Some ch -> ~ In (ueid u) ch -> ~ UidValid sch u.
Proof.
  intros sch u i ch Hf He Hn [H _]. exact (Hn (H i ch Hf He)).
Qed.
Print Assumptions c11_enum_id_invalid.

Theorem c11_reject_invalid_uid_in_open_attr :
  forall sch, schema_wf sch = true -> forall u d i,
    is_action_type (uty u) = false -> find_etype sch (uty u) = Some i ->
    forall k v, In (k, v) (eattrs d) -> lookup k (et_attrs i) = None -> ~ UidsValid sch v ->
    conf_entity sch (u, d) <> None.
Proof.
  intros sch Hwf u d i Hna Hf k v Hin Hl Hn Hc.
  apply (entity_conforms_inv sch u d i Hwf Hna Hf) in Hc as (_ & _ & H & _). specialize (H _ _ Hin).
  rewrite Hl in H. exact (Hn (proj2 H)).
Qed.
Print Assumptions c11_reject_invalid_uid_in_open_attr.

Theorem c11_reject_invalid_ancestor_uid :
  forall sch, schema_wf sch = true -> forall u d i,
    is_action_type (uty u) = false -> find_etype sch (uty u) = Some i ->
    forall a, In a (eancestors d) -> ~ UidValid sch a -> conf_entity sch (u, d) <> None.
Proof.
  intros sch Hwf u d i Hna Hf a Hin Hn Hc.
  apply (entity_conforms_inv sch u d i Hwf Hna Hf) in Hc as (_ & _ & _ & H & _). exact (Hn (proj1 (H _ Hin))).
Qed.
Print Assumptions c11_reject_invalid_ancestor_uid.

Theorem c11_reject_invalid_own_uid :
  forall sch, schema_wf sch = true -> forall u d i,
    is_action_type (uty u) = false -> find_etype sch (uty u) = Some i ->
    ~ UidValid sch u -> conf_entity sch (u, d) <> None.
Proof.
  intros sch Hwf u d i Hna Hf Hn Hc.
  apply (entity_conforms_inv sch u d i Hwf Hna Hf) in Hc as (H & _). exact (Hn H).
Qed.
Print Assumptions c11_reject_invalid_own_uid.

Theorem c11_reject_undeclared_entity_type :
  forall sch u d, is_action_type (uty u) = false -> find_etype sch (uty u) = None ->
    conf_entity sch (u, d) = Some CUnexpectedEntityType.
Proof.
  intros sch u d Ha Hf. unfold conf_entity. cbn [fst snd]. rewrite Ha, Hf. reflexivity.
Qed.
Print Assumptions c11_reject_undeclared_entity_type.

Theorem c11_reject_undeclared_action :
  forall sch u d, is_action_type (uty u) = true -> find_action sch u = None ->
    conf_entity sch (u, d) = Some CUndeclaredAction.
Proof.
  intros sch u d Ha Hf. unfold conf_entity. cbn [fst snd]. rewrite Ha.
  unfold conf_action, action_entity. rewrite Hf. reflexivity.
Qed.
Print Assumptions c11_reject_undeclared_action.

Theorem c11_reject_undeclared_action_uid_in_value :
  forall sch u v t, UidIn u v -> is_action_type (uty u) = true -> find_action sch u = None -> conf_value sch v t = false.
Proof.
  intros sch u v t Hin Ha Hf. apply conf_value_false. intros [_ Hu].
  destruct (proj2 (Hu u Hin) Ha) as [ai Hai]. congruence.
Qed.
Print Assumptions c11_reject_undeclared_action_uid_in_value.

Theorem c11_reject_action_mismatch :
  forall sch u d, is_action_type (uty u) = true ->
    (eattrs d <> [] \/ etags d <> [] \/ ~ (forall a, In a (eancestors d) <-> In a (action_ancestors sch u))) ->
    conf_entity sch (u, d) <> None.
Proof.
  intros sch u d Ha Hm Hc. unfold conf_entity in Hc. cbn [fst snd] in Hc. rewrite Ha in Hc.
  apply conf_action_iff in Hc as (_ & H1 & H2 & H3).
  destruct Hm as [Hm|[Hm|Hm]]; [exact (Hm H1) | exact (Hm H2) | exact (Hm H3)].
Qed.
Print Assumptions c11_reject_action_mismatch.

Theorem c11_reject_request_undeclared_action :
  forall sch q, find_action sch (raction q) = None -> conf_request sch q <> None.
Proof.
  intros sch q Hf Hc. apply c11_request in Hc as (_ & _ & [ai [Hai _]] & _). congruence.
Qed.
Print Assumptions c11_reject_request_undeclared_action.

Theorem c11_reject_principal_not_in_applies_to :
  forall sch q ai, find_action sch (raction q) = Some ai -> ~ In (uty (rprincipal q)) (ai_principals ai) ->
    conf_request sch q <> None.
Proof.
  intros sch q ai Hf Hn Hc. apply c11_request in Hc as (_ & _ & [ai' [Hai [H _]]] & _).
  rewrite Hf in Hai. injection Hai as <-. exact (Hn H).
Qed.
Print Assumptions c11_reject_principal_not_in_applies_to.

Theorem c11_reject_resource_not_in_applies_to :
  forall sch q ai, find_action sch (raction q) = Some ai -> ~ In (uty (rresource q)) (ai_resources ai) ->
    conf_request sch q <> None.
Proof.
  intros sch q ai Hf Hn Hc. apply c11_request in Hc as (_ & _ & [ai' [Hai [_ H]]] & _).
  rewrite Hf in Hai. injection Hai as <-. exact (Hn H).
Qed.
Print Assumptions c11_reject_resource_not_in_applies_to.

Theorem c11_reject_request_context :
  forall sch q ai, find_action sch (raction q) = Some ai ->
    conf_value sch (VRecord (rcontext q)) (ai_context ai) = false -> conf_request sch q <> None.
Proof.
  intros sch q ai Hf Hv Hc. apply c11_request in Hc as (_ & _ & _ & [ai' [Hai H]]).
  rewrite Hf in Hai. injection Hai as <-. apply conf_value_false in Hv. exact (Hv H).
Qed.
Print Assumptions c11_reject_request_context.

Theorem c11_reject_request_scope_var :
  forall sch q, ~ ScopeVarConforms sch (rprincipal q) \/ ~ ScopeVarConforms sch (rresource q) ->
    conf_request sch q <> None.
Proof.
  intros sch q Hn Hc. apply c11_request in Hc as (H1 & H2 & _). destruct Hn as [Hn|Hn]; [exact (Hn H1) | exact (Hn H2)].
Qed.
Print Assumptions c11_reject_request_scope_var.

Theorem c11_entry_add :
  forall sch es, schema_wf sch = true ->
    (ep_add_entities sch es = Accept <-> forall e, In e es -> EntityConforms sch e).
Proof. exact ep_add_iff. Qed.
Print Assumptions c11_entry_add.

Theorem c11_entry_upsert :
  forall sch es, schema_wf sch = true ->
    (ep_upsert_entities sch es = Accept <-> forall e, In e es -> EntityConforms sch e).
Proof. exact ep_add_iff. Qed.
Print Assumptions c11_entry_upsert.

(* from_entities: non-action entities as given, action entities after the ancestor closure *)
Theorem c11_entry_from_entities :
  forall sch es, schema_wf sch = true ->
    (ep_from_entities sch es = Accept <->
     (forall e, In e es -> is_action_entity e = false -> EntityConforms sch e) /\
     (forall e, In e (tc_close es) -> is_action_entity e = true -> EntityConforms sch e)).
Proof. exact ep_from_entities_iff. Qed.
Print Assumptions c11_entry_from_entities.

Theorem c11_entry_request_new :
  forall sch q, ep_request_new sch q = Accept <-> RequestConforms sch q.
Proof.
  intros sch q. unfold ep_request_new. rewrite verdict_accept. apply conf_request_iff.
Qed.
Print Assumptions c11_entry_request_new.

Theorem c11_entry_context_validate :
  forall sch a ctx, ep_context_validate sch a ctx = Accept <-> ContextConforms sch a ctx.
Proof. exact ep_context_validate_iff. Qed.
Print Assumptions c11_entry_context_validate.

(* every modelled entry point calls the same checker (conf_entity on every incoming entity /
   conf_request / conf_context), the JSON ones after the type-directed parse *)
Theorem c11_entry_same_checker :
  forall sch,
  (forall e, ep_entity_from_json sch e = after_parse (jparse_entity sch e) (conf_entity sch e)) /\
  (forall es, ep_entities_from_json sch es = after_parse (jres_all (jparse_entity sch) es) (ep_from_entities_r sch es)) /\
  (forall es, ep_add_entities_from_json sch es = after_parse (jres_all (jparse_entity sch) es) (first_err (conf_entity sch) es)) /\
  (forall es, ep_add_entities sch es = verdict_of (first_err (conf_entity sch) es)) /\
  (forall es, ep_upsert_entities sch es = verdict_of (first_err (conf_entity sch) es)) /\
  (forall es, ep_from_entities sch es =
     verdict_of (cthen (first_err (conf_entity sch) (filter (fun e => negb (is_action_entity e)) es))
                       (first_err (conf_entity sch) (filter is_action_entity (tc_close es))))) /\
  (forall q, ep_request_new sch q = verdict_of (conf_request sch q)) /\
  (forall a c, ep_context_validate sch a c = verdict_of (conf_context sch a c)).
Proof. intros sch. repeat split. Qed.
Print Assumptions c11_entry_same_checker.

Theorem c11_entry_json_partial :
  forall sch, schema_wf sch = true ->
  (forall e, ep_entity_from_json sch e = Accept -> EntityConforms sch e) /\
  (forall es, ep_entities_from_json sch es = Accept -> ep_from_entities sch es = Accept) /\
  (forall es, ep_add_entities_from_json sch es = Accept -> forall e, In e es -> EntityConforms sch e).
Proof.
  intros sch Hwf. split; [|split].
  - intros e H. exact (proj2 (proj1 (ep_entity_from_json_iff sch e Hwf) H)).
  - intros es H. exact (proj2 (proj1 (ep_entities_from_json_iff sch es) H)).
  - intros es H. exact (proj2 (proj1 (ep_add_entities_from_json_iff sch es Hwf) H)).
Qed.
Print Assumptions c11_entry_json_partial.

(* REFUTED for Context::from_json_*(json, Some((schema, action))): the model of what the code
   does (type-directed parse only) accepts a context that violates the schema, while
   Context::validate rejects it.  Witness: context {n: "x"} for `n: Long` (and an undeclared
   enumerated id).  Replayed on the implementation by the check: finding F-d. *)
Theorem c11_context_from_json_refuted :
  exists sch a ctx,
    schema_wf sch = true /\
    ep_context_from_json sch a ctx = Accept /\
    ~ ContextConforms sch a ctx /\
    ep_context_validate sch a ctx = Reject CInvalidContext.
Proof.
  pose (ctx := [(s2str "n", VString (s2str "x"))]).
  assert (Hv : ep_context_validate ex_schema ex_view ctx = Reject CInvalidContext) by (vm_compute; reflexivity).
  exists ex_schema, ex_view, ctx. split; [exact ex_schema_wf|]. split; [vm_compute; reflexivity|].
  split; [exact (rejected_context_not_conformant _ _ _ _ Hv) | exact Hv].
Qed.
Print Assumptions c11_context_from_json_refuted.

Theorem c11_context_from_json_refuted_enum :
  exists sch a ctx,
    schema_wf sch = true /\
    ep_context_from_json sch a ctx = Accept /\
    ~ ContextConforms sch a ctx /\
    ep_context_validate sch a ctx = Reject CInvalidEnumEntity.
Proof.
  pose (ctx := [(s2str "c", VEntity (ex_uid ex_color "blue")); (s2str "n", VLong 1)]).
  assert (Hv : ep_context_validate ex_schema ex_view ctx = Reject CInvalidEnumEntity) by (vm_compute; reflexivity).
  exists ex_schema, ex_view, ctx. split; [exact ex_schema_wf|]. split; [vm_compute; reflexivity|].
  split; [exact (rejected_context_not_conformant _ _ _ _ Hv) | exact Hv].
Qed.
Print Assumptions c11_context_from_json_refuted_enum.

(* non-vacuity: the hypotheses are satisfiable and both verdicts occur *)
Example c11_ex_schema_wf : schema_wf ex_schema = true.
Proof. exact ex_schema_wf. Qed.

Example c11_ex_entity_conforms : EntityConforms ex_schema ex_alice.
Proof. apply (c11_entity ex_schema ex_alice c11_ex_schema_wf). vm_compute. reflexivity. Qed.

Example c11_ex_request_conforms : RequestConforms ex_schema ex_request.
Proof. apply c11_request. vm_compute. reflexivity. Qed.

Example c11_ex_action_conforms :
  EntityConforms ex_schema (ex_view, mkEdata [] [] [ex_all]).
Proof. apply (c11_entity _ _ c11_ex_schema_wf). vm_compute. reflexivity. Qed.

(* an enumerated id nested in a set inside a record attribute *)
Example c11_ex_enum_nested_rejected :
  conf_entity ex_schema
    (ex_uid ex_user "alice",
     mkEdata [(s2str "n", VLong 1);
              (s2str "r", VRecord [(s2str "z", VSet [VEntity (ex_uid ex_color "blue")])])] [] [])
  = Some CInvalidEnumEntity.
Proof. vm_compute. reflexivity. Qed.

Example c11_ex_missing_required_nested_rejected :
  conf_entity ex_schema
    (ex_uid ex_user "alice", mkEdata [(s2str "n", VLong 1); (s2str "r", VRecord [])] [] [])
  = Some CTypeMismatch.
Proof. vm_compute. reflexivity. Qed.

Example c11_ex_bad_ancestor_rejected :
  ep_upsert_entities ex_schema
    [(ex_uid ex_user "alice", mkEdata [(s2str "n", VLong 1)] [] [ex_uid ex_color "red"])]
  = Reject CInvalidAncestorType.
Proof. vm_compute. reflexivity. Qed.

Example c11_ex_tag_rejected :
  ep_upsert_entities ex_schema
    [(ex_uid ex_user "alice", mkEdata [(s2str "n", VLong 1)] [(s2str "t", VSet [VLong 3])] [])]
  = Reject CTypeMismatch.
Proof. vm_compute. reflexivity. Qed.

Example c11_ex_request_rejected :
  ep_request_new ex_schema (mkRequest (ex_uid ex_group "g") ex_view (ex_uid ex_group "g") [(s2str "n", VLong 1)])
  = Reject CInvalidPrincipalType.
Proof. vm_compute. reflexivity. Qed.
