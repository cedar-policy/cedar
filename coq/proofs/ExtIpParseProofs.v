From Coq Require Import Lia.
From Cedar Require Import ExtParse ExtParseProofs ExtIpProofs.
Open Scope list_scope.
Open Scope N_scope.

Definition dec_N (s : str) : N := digits_N 10 (fun c => c - 48)%N s.

Definition dec_field (maxlen : nat) (maxv : N) (O : str) (o : N) : Prop :=
  all_ascii_digits O = true /\ (1 <= length O <= maxlen)%nat /\
  (forall c t, O <> 48%N :: c :: t) /\ o = dec_N O /\ (o <= maxv)%N.

Lemma read_number_sound {isd radix dv maxd azp maxv s v r} :
  read_number isd radix dv maxd azp maxv s = Some (v, r) ->
  exists ds, s = ds ++ r /\ forallb isd ds = true /\ (1 <= length ds <= maxd)%nat /\
             (azp = false -> forall c t, ds <> 48%N :: c :: t) /\
             v = digits_N radix dv ds /\ v <= maxv.
Proof.
  unfold read_number. destruct (span isd s) as [ds r0] eqn:S.
  apply span_spec in S. destruct S as (E & F & _).
  destruct (Nat.ltb maxd (length ds)) eqn:L; [discriminate|]. apply Nat.ltb_ge in L.
  destruct ds as [|c ds']; [discriminate|].
  destruct (negb azp && N.eqb c 48 && Nat.ltb 1 (length (c :: ds'))) eqn:Z; [discriminate|].
  destruct (maxv <? digits_N radix dv (c :: ds')) eqn:M; [discriminate|]. apply N.ltb_ge in M.
  intros [= <- <-]. exists (c :: ds'). repeat split; try assumption.
  - cbn. lia.
  - intros -> c' t [= -> ->]. discriminate Z.
Qed.

Lemma read_dec_u8_sound s v r :
  read_dec_u8 s = Some (v, r) -> exists ds, s = ds ++ r /\ dec_field 3 255 ds v.
Proof.
  intros H. destruct (read_number_sound H) as (ds & E & F & [L1 L2] & Z & V & M).
  exists ds. split; [exact E|]. unfold dec_field. rewrite all_ascii_digits_forallb.
  repeat split; try assumption. exact (Z eq_refl).
Qed.

Lemma octet_dot_sound {B} s (k : N -> str -> option B) y :
  (let? (o, r) := read_dec_u8 s in let? r := expect 46 r in k o r) = Some y ->
  exists O o r, s = O ++ 46%N :: r /\ dec_field 3 255 O o /\ k o r = Some y.
Proof.
  intros H. apply obind_some in H as ([o r1] & R & H). apply expect_bind in H as (r & -> & H).
  destruct (read_dec_u8_sound _ _ _ R) as (O & E & F).
  exists O, o, r. split; [exact E|]. split; [exact F|exact H].
Qed.

Lemma read_ipv4_sound s a r :
  read_ipv4 s = Some (a, r) ->
  exists O1 O2 O3 O4 o1 o2 o3 o4,
    s = O1 ++ 46%N :: O2 ++ 46%N :: O3 ++ 46%N :: O4 ++ r /\
    dec_field 3 255 O1 o1 /\ dec_field 3 255 O2 o2 /\ dec_field 3 255 O3 o3 /\ dec_field 3 255 O4 o4 /\
    a = ((o1 * 256 + o2) * 256 + o3) * 256 + o4.
Proof.
  unfold read_ipv4. intros H.
  apply octet_dot_sound in H as (O1 & o1 & s2 & -> & F1 & H).
  apply octet_dot_sound in H as (O2 & o2 & s3 & -> & F2 & H).
  apply octet_dot_sound in H as (O3 & o3 & s4 & -> & F3 & H).
  apply obind_some in H as ([o4 r4] & R4 & [= <- <-]).
  destruct (read_dec_u8_sound _ _ _ R4) as (O4 & -> & F4).
  exists O1, O2, O3, O4, o1, o2, o3, o4. split; [reflexivity|]. repeat (split; [assumption|]). reflexivity.
Qed.

Lemma dec_field_le maxlen maxv O o : dec_field maxlen maxv O o -> o <= maxv.
Proof. intros F. apply F. Qed.

Lemma quad_bound o1 o2 o3 o4 :
  o1 <= 255 -> o2 <= 255 -> o3 <= 255 -> o4 <= 255 ->
  ((o1 * 256 + o2) * 256 + o3) * 256 + o4 < 2 ^ 32.
Proof. change (2 ^ 32) with 4294967296. lia. Qed.

Lemma read_ipv4_bound s a r : read_ipv4 s = Some (a, r) -> a < 2 ^ 32.
Proof.
  intros H. destruct (read_ipv4_sound _ _ _ H) as (O1 & O2 & O3 & O4 & o1 & o2 & o3 & o4 & _ & F1 & F2 & F3 & F4 & ->).
  apply quad_bound; eapply dec_field_le; eassumption.
Qed.

Lemma std_ip_v4 s a : std_ip_from_str s = Some (false, a) -> read_ipv4 s = Some (a, []).
Proof.
  unfold std_ip_from_str. destruct (read_ipv4 s) as [[a' r]|].
  - destruct r; [|discriminate]. intros H; inversion H; reflexivity.
  - destruct (read_ipv6 s) as [[a' r]|]; [|discriminate]. destruct r; discriminate.
Qed.

Lemma split_at_char_sound c : forall s x y, split_at_char c s = Some (x, y) -> s = x ++ c :: y.
Proof.
  induction s as [|h t IH]; intros x y H; cbn in H; [discriminate|].
  destruct (N.eqb_spec h c).
  - inversion H; subst. reflexivity.
  - destruct (split_at_char c t) as [[a b]|]; [|discriminate]. inversion H; subst.
    cbn. f_equal. apply IH. reflexivity.
Qed.

Lemma parse_prefix_sound P maxp maxlen p :
  parse_prefix P maxp (Z.of_nat maxlen) = Some p -> dec_field maxlen maxp P p.
Proof.
  unfold parse_prefix.
  destruct (Z.of_nat maxlen <? byte_len P)%Z eqn:L; [discriminate|]. apply Z.ltb_ge in L.
  destruct (all_ascii_digits P) eqn:A; [|discriminate]. cbn [negb].
  destruct (match P with 48%N :: _ :: _ => true | _ => false end) eqn:Z; [discriminate|].
  destruct P as [|c t]; [discriminate|].
  fold (dec_N (c :: t)).
  destruct (255 <? dec_N (c :: t)); [discriminate|].
  destruct (maxp <? dec_N (c :: t)) eqn:M; [discriminate|]. apply N.ltb_ge in M.
  intros [= <-]. rewrite (byte_len_ascii_digits _ A) in L.
  repeat split; try assumption.
  - cbn. lia.
  - lia.
  - intros c' t' [= -> ->]. discriminate Z.
Qed.

Lemma ip_parse_some s a :
  ip_parse s = Some a ->
  exists A, std_ip_from_str A = Some (ip_v6 a, ip_addr a) /\
    ((s = A /\ ip_prefix a = if ip_v6 a then 128 else 32) \/
     exists P, s = A ++ 47%N :: P /\
       (if ip_v6 a then parse_prefix P 128 3 else parse_prefix P 32 2) = Some (ip_prefix a)).
Proof.
  unfold ip_parse.
  destruct (43 <? byte_len s)%Z; [discriminate|].
  destruct (contains_at_least_two s 58 && contains_at_least_two s 46); [discriminate|].
  destruct (split_at_char 47%N s) as [[A P]|] eqn:SP; intros H.
  - apply split_at_char_sound in SP.
    apply obind_some in H as ([v6 ad] & IP & H). apply obind_some in H as (p & PP & [= <-]).
    exists A. split; [exact IP|]. right. exists P. split; [exact SP|exact PP].
  - apply obind_some in H as ([v6 ad] & IP & [= <-]).
    exists s. split; [exact IP|]. left. split; reflexivity.
Qed.

Theorem ip_parse_v4_sound s a :
  ip_parse s = Some a -> ip_v6 a = false ->
  exists O1 O2 O3 O4 o1 o2 o3 o4,
    dec_field 3 255 O1 o1 /\ dec_field 3 255 O2 o2 /\ dec_field 3 255 O3 o3 /\ dec_field 3 255 O4 o4 /\
    ip_addr a = ((o1 * 256 + o2) * 256 + o3) * 256 + o4 /\
    ((s = O1 ++ 46%N :: O2 ++ 46%N :: O3 ++ 46%N :: O4 /\ ip_prefix a = 32) \/
     exists P, s = (O1 ++ 46%N :: O2 ++ 46%N :: O3 ++ 46%N :: O4) ++ 47%N :: P /\
               dec_field 2 32 P (ip_prefix a)) /\
    ip_wf a.
Proof.
  intros H V. destruct (ip_parse_some s a H) as (A & IP & HP). rewrite V in IP, HP.
  apply std_ip_v4 in IP. pose proof (read_ipv4_bound _ _ _ IP) as Wa.
  destruct (read_ipv4_sound _ _ _ IP) as (O1 & O2 & O3 & O4 & o1 & o2 & o3 & o4 & EA & F1 & F2 & F3 & F4 & Ea).
  rewrite app_nil_r in EA.
  assert (HP' : (s = A /\ ip_prefix a = 32) \/
                exists P, s = A ++ 47%N :: P /\ dec_field 2 32 P (ip_prefix a)).
  { destruct HP as [HP | (P & Es & PP)]; [left; exact HP|].
    right. exists P. split; [exact Es|]. exact (parse_prefix_sound P 32 2 _ PP). }
  exists O1, O2, O3, O4, o1, o2, o3, o4. repeat (split; [assumption|]).
  split; [rewrite <- EA; exact HP'|].
  unfold ip_wf. rewrite V. split; [exact Wa|].
  destruct HP' as [[_ ->] | (P & _ & FP)]; [apply N.le_refl | exact (dec_field_le _ _ _ _ FP)].
Qed.

(* IPv6, first steps only (`read_groups_bound`, `groups_val_bound`).  That read_ipv6 stays below 2^128,
   hence that a parsed IPv6 value is well formed, is not proved; ip_wf stays a hypothesis of the
   range theorems. *)
Lemma read_hex_u16_bound s g r : read_hex_u16 s = Some (g, r) -> g < 65536.
Proof.
  intros H. destruct (read_number_sound H) as (_ & _ & _ & _ & _ & _ & M). lia.
Qed.

Lemma v4_groups_bound a : a < 2 ^ 32 -> N.shiftr a 16 < 65536 /\ N.land a 65535 < 65536.
Proof.
  intros H. split.
  - rewrite N.shiftr_div_pow2. apply N.div_lt_upper_bound; [discriminate|].
    change (2 ^ 16 * 65536) with (2 ^ 32). exact H.
  - change 65535 with (N.ones 16). rewrite N.land_ones. apply N.mod_lt. discriminate.
Qed.

Lemma triple_eq {A B C} (a a' : A) (b b' : B) (c c' : C) :
  (a, b, c) = (a', b', c') -> a = a' /\ b = b' /\ c = c'.
Proof. intros [= -> -> ->]. repeat split. Qed.

Lemma read_groups_step {k first s gs r v4} :
  read_groups (S k) first s = (gs, r, v4) ->
  (exists s' a, read_ipv4 s' = Some (a, r) /\ gs = [N.shiftr a 16; N.land a 65535] /\ k <> O) \/
  (exists s' g r1 gs', read_hex_u16 s' = Some (g, r1) /\ read_groups k false r1 = (gs', r, v4) /\
                       gs = g :: gs') \/
  gs = [].
Proof.
  cbn [read_groups]. set (after_sep := if first then Some s else expect 58 s).
  destruct (match k with O => None | S _ => obind after_sep (fun r0 => read_ipv4 r0) end)
    as [[a r1]|] eqn:V4.
  - (* not by injection, which is slow on a term that holds N.shiftr a 16 *)
    intros H. apply triple_eq in H as (<- & <- & <-). left. destruct k; [discriminate|].
    apply obind_some in V4 as (s' & _ & V4). exists s', a. repeat split; [exact V4|discriminate].
  - destruct (obind after_sep (fun r0 => read_hex_u16 r0)) as [[g r1]|] eqn:HX.
    + destruct (read_groups k false r1) as [[gs' r'] v4'] eqn:RG.
      intros H. apply triple_eq in H as (<- & <- & <-). right. left.
      apply obind_some in HX as (s' & _ & HX). exists s', g, r1, gs'. repeat split; assumption.
    + intros H. apply triple_eq in H as (<- & _). right. right. reflexivity.
Qed.

Lemma read_groups_bound : forall left first s gs r v4,
  read_groups left first s = (gs, r, v4) ->
  Forall (fun g => g < 65536) gs /\ (length gs <= left)%nat.
Proof.
  induction left as [|k IH]; intros first s gs r v4 H.
  - injection H as <- <- <-. split; [apply Forall_nil|apply le_n].
  - destruct (read_groups_step H) as [(s' & a & V4 & -> & K) | [(s' & g & r1 & gs' & HX & RG & ->) | ->]].
    + apply read_ipv4_bound, v4_groups_bound in V4. destruct V4 as [Hi Lo].
      split; [repeat constructor; assumption|]. destruct k; [contradiction|cbn; lia].
    + apply read_hex_u16_bound in HX. destruct (IH _ _ _ _ _ RG) as [F L].
      split; [apply Forall_cons; assumption|cbn; lia].
    + split; [apply Forall_nil|apply Nat.le_0_l].
Qed.

Lemma fold_groups_bound : forall gs acc B,
  Forall (fun g => g < 65536) gs -> acc < B ->
  fold_left (fun a g => a * 65536 + g) gs acc < B * 65536 ^ N.of_nat (length gs).
Proof.
  induction gs as [|g gs IH]; intros acc B F Hacc.
  - cbn. lia.
  - inversion F; subst. cbn [fold_left length]. rewrite Nat2N.inj_succ, N.pow_succ_r'.
    rewrite N.mul_assoc. apply IH; [assumption|lia].
Qed.

Lemma groups_val_bound gs : Forall (fun g => g < 65536) gs -> length gs = 8%nat -> groups_val gs < 2 ^ 128.
Proof.
  intros F L. unfold groups_val. pose proof (fold_groups_bound gs 0 1 F N.lt_0_1) as B.
  rewrite L in B. change (1 * 65536 ^ N.of_nat 8) with (2 ^ 128) in B. exact B.
Qed.
