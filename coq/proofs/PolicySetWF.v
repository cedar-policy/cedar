From Cedar Require Import PolicySet BaseFacts.

Lemma str_eqb_sym a b : str_eqb a b = str_eqb b a.
Proof. exact (BaseFacts.str_eqb_sym a b). Qed.

Section Maps.
  Context {V : Type}.
  Implicit Types m : list (str * V).

  Lemma alookup_app k m m' :
    alookup k (m ++ m') = match alookup k m with Some v => Some v | None => alookup k m' end.
  Proof. induction m as [|[k' v] m IH]; cbn; [reflexivity|]. destruct (str_eqb k k'); auto. Qed.

  Lemma alookup_aremove k k' m :
    alookup k' (aremove k m) = if str_eqb k' k then None else alookup k' m.
  Proof.
    unfold aremove. induction m as [|[k0 v] m IH]; cbn.
    - destruct (str_eqb k' k); reflexivity.
    - destruct (str_eqb_spec k k0) as [<-|Hne]; cbn; rewrite IH; [destruct (str_eqb k' k); reflexivity|].
      destruct (str_eqb_spec k' k) as [->|_]; [|reflexivity].
      destruct (str_eqb_spec k k0); [contradiction|reflexivity].
  Qed.

  Lemma alookup_ainsert k k' v m :
    alookup k' (ainsert k v m) = if str_eqb k' k then Some v else alookup k' m.
  Proof.
    unfold ainsert. rewrite alookup_app, alookup_aremove. cbn.
    destruct (str_eqb k' k); [reflexivity|]. destruct (alookup k' m); reflexivity.
  Qed.

  Lemma amem_true k m : amem k m = true <-> alookup k m <> None.
  Proof. unfold amem. destruct (alookup k m); split; congruence. Qed.
  Lemma amem_false k m : amem k m = false <-> alookup k m = None.
  Proof. unfold amem. destruct (alookup k m); split; congruence. Qed.
End Maps.

Lemma smem_spec k l : smem k l = true <-> In k l.
Proof. exact (existsb_eqb_In str_eqb str_eqb_eq k l). Qed.
Lemma sinsert_spec k l x : In x (sinsert k l) <-> x = k \/ In x l.
Proof.
  unfold sinsert. destruct (smem k l) eqn:E.
  - apply smem_spec in E. split; [auto | intros [->|H]; auto].
  - rewrite in_app_iff. cbn. split; [intros [H|[H|[]]]; auto | intros [H|H]; auto].
Qed.

Lemma sremove_spec k l x : In x (sremove k l) <-> x <> k /\ In x l.
Proof.
  unfold sremove. rewrite filter_In. split.
  - intros [Hin E]. split; [|exact Hin]. intros ->. rewrite str_eqb_refl in E. discriminate.
  - intros [Hne Hin]. split; [exact Hin|]. destruct (str_eqb_spec k x); [congruence | reflexivity].
Qed.

(* looking up key `j` in maps that were updated at key `i`: j = i (then `j` becomes `i`) or j <> i *)
Ltac at_key j i := rewrite ?alookup_ainsert, ?alookup_aremove; destruct (str_eqb_spec j i) as [->|_].

(* the links of a map `L` whose template id is `t`, after an insertion under a fresh id and after a removal *)
Lemma linked_ainsert_same (L : list (str * policy)) i p l :
  alookup i L = None ->
  ((exists q, alookup l (ainsert i p L) = Some q /\ tid (ptemplate q) = tid (ptemplate p)) <->
   l = i \/ exists q, alookup l L = Some q /\ tid (ptemplate q) = tid (ptemplate p)).
Proof.
  intros Hi. split.
  - intros (q & Hq & Ht). rewrite alookup_ainsert in Hq. destruct (str_eqb_spec l i); [auto | eauto].
  - intros [->|(q & Hq & Ht)]; [exists p | exists q]; rewrite alookup_ainsert.
    + rewrite str_eqb_refl. auto.
    + destruct (str_eqb_spec l i) as [->|_]; [congruence | auto].
Qed.

Lemma linked_ainsert_other (L : list (str * policy)) i p t l :
  alookup i L = None -> t <> tid (ptemplate p) ->
  ((exists q, alookup l (ainsert i p L) = Some q /\ tid (ptemplate q) = t) <->
   exists q, alookup l L = Some q /\ tid (ptemplate q) = t).
Proof.
  intros Hi Hne. split; intros (q & Hq & Ht); exists q.
  - rewrite alookup_ainsert in Hq. destruct (str_eqb_spec l i); [congruence | auto].
  - at_key l i; [congruence | auto].
Qed.

Lemma linked_aremove (L : list (str * policy)) i t l :
  (exists q, alookup l (aremove i L) = Some q /\ tid (ptemplate q) = t) <->
  l <> i /\ exists q, alookup l L = Some q /\ tid (ptemplate q) = t.
Proof.
  split.
  - intros (q & Hq & Ht). rewrite alookup_aremove in Hq. destruct (str_eqb_spec l i); [discriminate | eauto].
  - intros (Hne & q & Hq & Ht). exists q. at_key l i; [contradiction | auto].
Qed.

Lemma linked_aremove_other (L : list (str * policy)) i p t l :
  alookup i L = Some p -> t <> tid (ptemplate p) ->
  ((exists q, alookup l (aremove i L) = Some q /\ tid (ptemplate q) = t) <->
   exists q, alookup l L = Some q /\ tid (ptemplate q) = t).
Proof.
  intros Hi Hne. rewrite linked_aremove. split; [intros [_ X]; exact X|].
  intros (q & Hq & Ht). split; [intros ->; congruence | eauto].
Qed.

Lemma ps_add_static_ok s t s' :
  ps_add_static s t = OOk s' <->
  alookup (tid t) (ps_templates s) = None /\ alookup (tid t) (ps_links s) = None /\
  s' = mkPset (ainsert (tid t) t (ps_templates s)) (ainsert (tid t) (static_of t) (ps_links s))
              (ainsert (tid t) [tid t] (ps_t2l s)).
Proof.
  unfold ps_add_static, amem. split.
  - destruct (alookup _ (ps_templates s)); [discriminate|]. destruct (alookup _ (ps_links s)); [discriminate|].
    intros [= <-]. auto.
  - intros (-> & -> & ->). reflexivity.
Qed.

Lemma ps_add_template_ok s t s' :
  ps_add_template s t = OOk s' <->
  alookup (tid t) (ps_links s) = None /\ alookup (tid t) (ps_templates s) = None /\
  s' = mkPset (ainsert (tid t) t (ps_templates s)) (ps_links s) (ainsert (tid t) [] (ps_t2l s)).
Proof.
  unfold ps_add_template, amem. split.
  - destruct (alookup _ (ps_links s)); [discriminate|]. destruct (alookup _ (ps_templates s)); [discriminate|].
    intros [= <-]. auto.
  - intros (-> & -> & ->). reflexivity.
Qed.

Lemma ps_link_ok s tmpl new env s' :
  ps_link s tmpl new env = OOk s' <->
  exists t, alookup tmpl (ps_templates s) = Some t /\ (t_is_static t && amem tmpl (ps_links s)) = false /\
    check_binding t env = true /\ alookup new (ps_links s) = None /\ alookup new (ps_templates s) = None /\
    s' = mkPset (ps_templates s) (ainsert new (mkPolicy t (Some new) env) (ps_links s))
                (ainsert tmpl (sinsert new (match alookup tmpl (ps_t2l s) with Some l => l | None => [] end))
                         (ps_t2l s)).
Proof.
  unfold ps_link. split.
  - destruct (alookup tmpl (ps_templates s)) as [t|]; [|discriminate].
    destruct (t_is_static t && amem tmpl (ps_links s)) eqn:NS; [discriminate|].
    destruct (check_binding t env) eqn:EB; [|discriminate]. cbn.
    destruct (amem new (ps_links s)) eqn:EL; [discriminate|].
    destruct (amem new (ps_templates s)) eqn:EN; [discriminate|].
    intros [= <-]. apply amem_false in EL, EN. exists t. auto 6.
  - intros (t & -> & -> & -> & EL & EN & ->). apply amem_false in EL, EN. cbn. rewrite EL, EN. reflexivity.
Qed.

Lemma ps_unlink_ok s i s' p :
  ps_unlink s i = OOk (s', p) <->
  alookup i (ps_templates s) = None /\ alookup i (ps_links s) = Some p /\
  exists l, alookup (tid (ptemplate p)) (ps_t2l s) = Some l /\
    s' = mkPset (ps_templates s) (aremove i (ps_links s)) (ainsert (tid (ptemplate p)) (sremove i l) (ps_t2l s)).
Proof.
  unfold ps_unlink, amem. split.
  - destruct (alookup i (ps_templates s)); [discriminate|].
    destruct (alookup i (ps_links s)) as [p0|]; [|discriminate].
    destruct (alookup _ (ps_t2l s)) as [l|] eqn:EM; [|discriminate]. intros [= <- <-]. eauto.
  - intros (-> & -> & l & -> & ->). reflexivity.
Qed.

Lemma ps_remove_static_ok s i s' p :
  ps_remove_static s i = OOk (s', p) <->
  alookup i (ps_links s) = Some p /\ alookup i (ps_templates s) <> None /\
  s' = mkPset (aremove i (ps_templates s)) (aremove i (ps_links s)) (aremove i (ps_t2l s)).
Proof.
  unfold ps_remove_static, amem. split.
  - destruct (alookup i (ps_links s)); [|discriminate].
    destruct (alookup i (ps_templates s)); [|discriminate]. intros [= <- <-]. repeat split. discriminate.
  - intros (-> & ET & ->). destruct (alookup i (ps_templates s)); [reflexivity | contradiction].
Qed.

Lemma ps_remove_template_ok s i s' :
  ps_remove_template s i = OOk s' <->
  alookup i (ps_links s) = None /\ alookup i (ps_t2l s) = Some [] /\ alookup i (ps_templates s) <> None /\
  s' = mkPset (aremove i (ps_templates s)) (ps_links s) (aremove i (ps_t2l s)).
Proof.
  unfold ps_remove_template, amem. split.
  - destruct (alookup i (ps_links s)); [discriminate|].
    destruct (alookup i (ps_t2l s)) as [[|]|]; try discriminate.
    destruct (alookup i (ps_templates s)); [|discriminate]. intros [= <-]. repeat split. discriminate.
  - intros (-> & -> & ET & ->). destruct (alookup i (ps_templates s)); [reflexivity | contradiction].
Qed.

Lemma has_slot_eqb a b : prconstraint_eqb a b = true -> has_slot a = has_slot b.
Proof.
  (* equal constraints have the same shape, and equal references are both the slot or neither *)
  destruct a as [|r|r|n r|n], b as [|r'|r'|n' r'|n']; try discriminate; try reflexivity.
  - destruct r, r'; try discriminate; reflexivity.
  - destruct r, r'; try discriminate; reflexivity.
  - cbn [prconstraint_eqb]. intros [_ H]%andb_prop. destruct r, r'; try discriminate H; reflexivity.
Qed.

Lemma template_eqb_static a b : template_eqb a b = true -> t_is_static a = t_is_static b.
Proof.
  (* of the seven tests of template_eqb, the fourth and the sixth compare principal and resource *)
  unfold template_eqb. intros [[[[_ Hp]%andb_prop _]%andb_prop Hr]%andb_prop _]%andb_prop.
  unfold t_is_static, tslots. rewrite (has_slot_eqb _ _ Hp), (has_slot_eqb _ _ Hr). reflexivity.
Qed.

Lemma static_slots t : t_is_static t = true -> tslots t = [].
Proof. unfold t_is_static. destruct (tslots t); [reflexivity | discriminate]. Qed.
Lemma check_binding_static t : t_is_static t = true -> check_binding t [] = true.
Proof. intros H. unfold check_binding. rewrite (static_slots _ H). reflexivity. Qed.
Lemma check_binding_nil t env : t_is_static t = true -> check_binding t env = true -> env = [].
Proof.
  intros H. unfold check_binding. rewrite (static_slots _ H). destruct env; [reflexivity | discriminate].
Qed.

Lemma p_static_link p : p_is_static p = true -> plink p = None.
Proof. unfold p_is_static. destruct (plink p); [discriminate|reflexivity]. Qed.
Lemma static_pid p : plink p = None -> pid p = tid (ptemplate p).
Proof. unfold pid. intros ->. reflexivity. Qed.

Definition good_policy (p : policy) : Prop :=
  check_binding (ptemplate p) (penv p) = true /\ t_is_static (ptemplate p) = p_is_static p.

Record WF (s : pset) : Prop := mkWF {
  (* templates are stored under their own id *)
  wf_tid : forall i t, alookup i (ps_templates s) = Some t -> tid t = i;
  (* every link is stored under its id, its template is in `templates` (no link without its template),
     it binds exactly the template's slots, and it is static iff its template is slot-less *)
  wf_link : forall i p, alookup i (ps_links s) = Some p ->
      pid p = i /\ alookup (tid (ptemplate p)) (ps_templates s) = Some (ptemplate p) /\ good_policy p;
  (* no id is both a template and a template-linked policy *)
  wf_disj : forall i p, alookup i (ps_links s) = Some p -> alookup i (ps_templates s) <> None -> plink p = None;
  (* a slot-less template is the body of a static policy that is present *)
  wf_static_tpl : forall i t, alookup i (ps_templates s) = Some t -> t_is_static t = true ->
      alookup i (ps_links s) <> None;
  (* template_to_links_map has exactly the keys of templates ... *)
  wf_t2l_dom : forall i, alookup i (ps_t2l s) = None <-> alookup i (ps_templates s) = None;
  (* ... and is exactly the inverse image of links under "template id of" *)
  wf_t2l : forall t ids l, alookup t (ps_t2l s) = Some ids ->
      (In l ids <-> exists p, alookup l (ps_links s) = Some p /\ tid (ptemplate p) = t)
}.

Lemma WF_empty : WF empty_pset.
Proof. constructor; cbn; intros; try discriminate; try tauto. Qed.

Lemma good_static_of t : t_is_static t = true -> good_policy (static_of t).
Proof. intros H. split; cbn; [apply check_binding_static; exact H | exact H]. Qed.

Lemma good_static p : good_policy p -> plink p = None -> t_is_static (ptemplate p) = true.
Proof. intros [_ G] Hs. rewrite G. unfold p_is_static. rewrite Hs. reflexivity. Qed.

(* consequences: a static policy is stored under its template's id, which is therefore a template id as well,
   and it is that template's only link *)
Lemma WF_static_tid s i p :
  WF s -> alookup i (ps_links s) = Some p -> plink p = None -> tid (ptemplate p) = i.
Proof. intros W Hp Hs. destruct (wf_link _ W _ _ Hp) as [Pid _]. rewrite <- (static_pid _ Hs). exact Pid. Qed.

Lemma WF_static_template s i p :
  WF s -> alookup i (ps_links s) = Some p -> plink p = None -> alookup i (ps_templates s) = Some (ptemplate p).
Proof.
  intros W Hp Hs. destruct (wf_link _ W _ _ Hp) as (_ & B & _). rewrite (WF_static_tid _ _ _ W Hp Hs) in B. exact B.
Qed.

Lemma WF_static_unique s i p q l :
  WF s -> alookup i (ps_links s) = Some p -> plink p = None ->
  alookup l (ps_links s) = Some q -> tid (ptemplate q) = i -> l = i.
Proof.
  intros W Hp Hs Hq Ht.
  destruct (wf_link _ W _ _ Hp) as (_ & PT & PG). destruct (wf_link _ W _ _ Hq) as (_ & QT & [_ QG]).
  rewrite (WF_static_tid _ _ _ W Hp Hs) in PT. rewrite Ht, PT in QT. injection QT as E.
  rewrite <- Ht. symmetry. apply (WF_static_tid _ _ _ W Hq), p_static_link.
  rewrite <- QG, <- E. exact (good_static _ PG Hs).
Qed.

Lemma WF_shared_id s i p t :
  WF s -> alookup i (ps_links s) = Some p -> alookup i (ps_templates s) = Some t ->
  plink p = None /\ t = ptemplate p.
Proof.
  intros W HL HT. assert (Hs : plink p = None) by (apply (wf_disj _ W _ _ HL); congruence).
  split; [exact Hs|]. pose proof (WF_static_template _ _ _ W HL Hs). congruence.
Qed.

Lemma WF_linked_template s t l :
  WF s -> alookup t (ps_templates s) = None ->
  ~ exists p, alookup l (ps_links s) = Some p /\ tid (ptemplate p) = t.
Proof. intros W ET (p & Hp & <-). destruct (wf_link _ W _ _ Hp) as (_ & B & _). congruence. Qed.

Lemma ps_add_static_WF s t s' :
  WF s -> t_is_static t = true -> ps_add_static s t = OOk s' -> WF s'.
Proof.
  intros W St (ET & EL & ->)%ps_add_static_ok. set (k := tid t) in *.
  constructor; cbn [ps_templates ps_links ps_t2l].
  - intros i t0. at_key i k; [intros [= <-]; reflexivity | apply (wf_tid _ W)].
  - intros i q. at_key i k.
    + intros [= <-]. cbn. fold k. rewrite str_eqb_refl. auto using good_static_of.
    + intros Hq. destruct (wf_link _ W _ _ Hq) as (A & B & C).
      destruct (str_eqb_spec (tid (ptemplate q)) k); [congruence | auto].
  - intros i q. at_key i k; [intros [= <-] _; reflexivity | apply (wf_disj _ W)].
  - intros i t0. at_key i k; [discriminate | apply (wf_static_tpl _ W)].
  - intros i. at_key i k; [split; discriminate | apply (wf_t2l_dom _ W)].
  - intros t0 ids l. rewrite alookup_ainsert. destruct (str_eqb_spec t0 k) as [->|Hne].
    + intros [= <-]. etransitivity; [|symmetry; exact (linked_ainsert_same _ _ (static_of t) l EL)].
      split; [intros [<-|[]]; auto | intros [->|X]; [left; reflexivity | destruct (WF_linked_template _ _ l W ET X)]].
    + intros H. rewrite linked_ainsert_other by assumption. exact (wf_t2l _ W _ _ l H).
Qed.

Lemma static_policy_eta p : plink p = None -> good_policy p -> p = static_of (ptemplate p).
Proof.
  intros Hs G. pose proof (check_binding_nil _ _ (good_static _ G Hs) (proj1 G)) as He.
  destruct p as [t l e]. cbn in *. subst. reflexivity.
Qed.

(* PolicySet::add of a static policy is add_static of its template: the template cannot be there already,
   since a slot-less template that is present has its static policy present *)
Lemma ps_add_is_add_static s t s' :
  WF s -> t_is_static t = true -> ps_add s (static_of t) = OOk s' -> ps_add_static s t = OOk s'.
Proof.
  intros W St. unfold ps_add, ps_add_static, amem. cbn [pid static_of plink ptemplate].
  destruct (alookup (tid t) (ps_links s)) eqn:EL.
  { destruct (alookup _ (ps_templates s)); [destruct (negb _)|]; discriminate. }
  destruct (alookup (tid t) (ps_templates s)) as [t'|] eqn:ET; [|exact (fun H => H)].
  destruct (template_eqb t' t) eqn:EQ; [|discriminate].
  apply template_eqb_static in EQ. rewrite St in EQ. destruct (wf_static_tpl _ W _ _ ET EQ EL).
Qed.

Lemma ps_add_WF s p s' :
  WF s -> plink p = None -> good_policy p -> ps_add s p = OOk s' -> WF s'.
Proof.
  intros W Hs G H. rewrite (static_policy_eta _ Hs G) in H. pose proof (good_static _ G Hs) as St.
  exact (ps_add_static_WF _ _ _ W St (ps_add_is_add_static _ _ _ W St H)).
Qed.

Lemma ps_add_template_WF s t s' :
  WF s -> t_is_static t = false -> ps_add_template s t = OOk s' -> WF s'.
Proof.
  intros W St (EL & ET & ->)%ps_add_template_ok. set (k := tid t) in *.
  constructor; cbn [ps_templates ps_links ps_t2l].
  - intros i t0. at_key i k; [intros [= <-]; reflexivity | apply (wf_tid _ W)].
  - intros i q Hq. destruct (wf_link _ W _ _ Hq) as (A & B & C). rewrite alookup_ainsert.
    destruct (str_eqb_spec (tid (ptemplate q)) k); [congruence | auto].
  - intros i q Hq. at_key i k; [congruence | exact (wf_disj _ W _ _ Hq)].
  - intros i t0. at_key i k; [intros [= <-]; congruence | apply (wf_static_tpl _ W)].
  - intros i. at_key i k; [split; discriminate | apply (wf_t2l_dom _ W)].
  - intros t0 ids l. at_key t0 k; [|apply (wf_t2l _ W)].
    intros [= <-]. split; [intros [] | intros X; exact (WF_linked_template _ _ l W ET X)].
Qed.

Lemma ps_link_WF s tmpl new env s' :
  WF s -> ps_link s tmpl new env = OOk s' -> WF s'.
Proof.
  intros W (t & ET & NS & EB & EL & EN & ->)%ps_link_ok.
  assert (St : t_is_static t = false).
  { destruct (t_is_static t) eqn:St; [|reflexivity].
    apply (wf_static_tpl _ W _ _ ET), amem_true in St. rewrite St in NS. discriminate NS. }
  pose proof (wf_tid _ W _ _ ET) as <-.
  constructor; cbn [ps_templates ps_links ps_t2l].
  - apply (wf_tid _ W).
  - intros i q. at_key i new; [|apply (wf_link _ W)].
    intros [= <-]. repeat split; [exact ET | exact EB | exact St].
  - intros i q. at_key i new; [intros _ X; contradiction | apply (wf_disj _ W)].
  - intros i t0 Ht0 S0. at_key i new; [discriminate | exact (wf_static_tpl _ W _ _ Ht0 S0)].
  - intros i. at_key i (tid t); [split; congruence | apply (wf_t2l_dom _ W)].
  - intros k ids l. rewrite alookup_ainsert. destruct (str_eqb_spec k (tid t)) as [->|Hne].
    + intros [= <-]. destruct (alookup (tid t) (ps_t2l s)) as [l0|] eqn:EM.
      * rewrite sinsert_spec, (wf_t2l _ W _ _ l EM). symmetry. exact (linked_ainsert_same _ _ _ l EL).
      * apply (wf_t2l_dom _ W) in EM. congruence.
    + intros H. rewrite linked_ainsert_other by assumption. exact (wf_t2l _ W _ _ l H).
Qed.

Lemma ps_unlink_WF s i s' p :
  WF s -> ps_unlink s i = OOk (s', p) -> WF s'.
Proof.
  intros W (ET & EL & l0 & EM & ->)%ps_unlink_ok.
  destruct (wf_link _ W _ _ EL) as (_ & HT & _).
  constructor; cbn [ps_templates ps_links ps_t2l].
  - apply (wf_tid _ W).
  - intros j q. at_key j i; [discriminate | apply (wf_link _ W)].
  - intros j q. at_key j i; [discriminate | apply (wf_disj _ W)].
  - intros j t Ht St. at_key j i; [congruence | exact (wf_static_tpl _ W _ _ Ht St)].
  - intros j. at_key j (tid (ptemplate p)); [split; congruence | apply (wf_t2l_dom _ W)].
  - intros k ids l. rewrite alookup_ainsert. destruct (str_eqb_spec k (tid (ptemplate p))) as [->|Hne].
    + intros [= <-]. rewrite sremove_spec, (wf_t2l _ W _ _ l EM), linked_aremove. reflexivity.
    + intros H. rewrite (linked_aremove_other _ _ _ _ _ EL Hne). exact (wf_t2l _ W _ _ l H).
Qed.

Lemma ps_remove_static_WF s i s' p :
  WF s -> ps_remove_static s i = OOk (s', p) -> WF s'.
Proof.
  intros W (EL & ET & ->)%ps_remove_static_ok.
  pose proof (wf_disj _ W _ _ EL ET) as Hs. pose proof (WF_static_tid _ _ _ W EL Hs) as Hi.
  constructor; cbn [ps_templates ps_links ps_t2l].
  - intros j t. at_key j i; [discriminate | apply (wf_tid _ W)].
  - intros j q. rewrite alookup_aremove. destruct (str_eqb_spec j i) as [->|Hne]; [discriminate|].
    intros Hq. destruct (wf_link _ W _ _ Hq) as (A & B & C). rewrite alookup_aremove.
    destruct (str_eqb_spec (tid (ptemplate q)) i) as [E|_]; [|auto].
    contradiction Hne. exact (WF_static_unique _ _ _ _ _ W EL Hs Hq E).
  - intros j q. at_key j i; [discriminate | apply (wf_disj _ W)].
  - intros j t. at_key j i; [discriminate | apply (wf_static_tpl _ W)].
  - intros j. at_key j i; [split; reflexivity | apply (wf_t2l_dom _ W)].
  - intros k ids l. rewrite alookup_aremove. destruct (str_eqb_spec k i) as [->|Hne]; [discriminate|].
    intros H. rewrite <- Hi in Hne. rewrite (linked_aremove_other _ _ _ _ _ EL Hne). exact (wf_t2l _ W _ _ l H).
Qed.

Lemma ps_remove_template_WF s i s' :
  WF s -> ps_remove_template s i = OOk s' -> WF s'.
Proof.
  intros W (EL & EM & ET & ->)%ps_remove_template_ok.
  constructor; cbn [ps_templates ps_links ps_t2l].
  - intros j t. at_key j i; [discriminate | apply (wf_tid _ W)].
  - intros j q Hq. destruct (wf_link _ W _ _ Hq) as (A & B & C). rewrite alookup_aremove.
    destruct (str_eqb_spec (tid (ptemplate q)) i) as [E|_]; [|auto].
    destruct (proj2 (wf_t2l _ W _ _ j EM)). eauto.
  - intros j q Hq. at_key j i; [congruence | exact (wf_disj _ W _ _ Hq)].
  - intros j t. at_key j i; [discriminate | apply (wf_static_tpl _ W)].
  - intros j. at_key j i; [split; reflexivity | apply (wf_t2l_dom _ W)].
  - intros k ids l. at_key k i; [discriminate | apply (wf_t2l _ W)].
Qed.

(* the API level: cedar_policy::PolicySet keeps two more maps beside the core set *)
Record WFapi (a : apiset) : Prop := mkWFapi {
  wa_ast : WF (a_ast a);
  (* `policies` is exactly the core set's `links` *)
  wa_pol : forall i, alookup i (a_policies a) = alookup i (ps_links (a_ast a));
  (* `templates` is exactly the core set's templates that have slots *)
  wa_tpl : forall i, alookup i (a_templates a) =
      match alookup i (ps_templates (a_ast a)) with
      | Some t => if t_is_static t then None else Some t
      | None => None
      end
}.

Lemma WFapi_empty : WFapi empty_api.
Proof. constructor; [exact WF_empty | reflexivity | reflexivity]. Qed.

Lemma api_add_WF a p a' :
  WFapi a -> good_policy p -> api_add a p = OOk a' -> WFapi a'.
Proof.
  intros [W P T] G H. unfold api_add in H.
  destruct (p_is_static p) eqn:Ps; [|discriminate]. apply p_static_link in Ps.
  destruct (ps_add (a_ast a) p) as [s'|] eqn:E; [|discriminate]. injection H as <-.
  pose proof (ps_add_WF _ _ _ W Ps G E) as W'. pose proof (good_static _ G Ps) as St.
  rewrite (static_pid _ Ps). rewrite (static_policy_eta _ Ps G) in E |- *. cbn [ptemplate static_of].
  apply ps_add_is_add_static, ps_add_static_ok in E as (ET & _ & ->); [|exact W|exact St].
  constructor; cbn [a_ast a_policies a_templates ps_links ps_templates]; [exact W'| |]; intros i.
  - rewrite !alookup_ainsert, P. reflexivity.
  - rewrite T. at_key i (tid (ptemplate p)); [rewrite ET, St|]; reflexivity.
Qed.

Lemma api_add_template_WF a t a' :
  WFapi a -> t_is_static t = false -> api_add_template a t = OOk a' -> WFapi a'.
Proof.
  intros [W P T] St H. unfold api_add_template in H.
  destruct (ps_add_template (a_ast a) t) as [s'|] eqn:E; [|discriminate]. injection H as <-.
  pose proof (ps_add_template_WF _ _ _ W St E) as W'. apply ps_add_template_ok in E as (_ & _ & ->).
  constructor; cbn [a_ast a_policies a_templates ps_links ps_templates]; [exact W'|exact P|]; intros i.
  rewrite !alookup_ainsert, T. destruct (str_eqb i (tid t)); [rewrite St|]; reflexivity.
Qed.

Lemma api_link_WF a tmpl new env a' :
  WFapi a -> api_link a tmpl new env = OOk a' -> WFapi a'.
Proof.
  intros [W P T] H. unfold api_link in H.
  destruct (alookup tmpl (a_templates a)); [|destruct (amem tmpl (a_policies a)); discriminate].
  destruct (ps_link (a_ast a) tmpl new env) as [s'|] eqn:E; [|discriminate].
  pose proof (ps_link_WF _ _ _ _ _ W E) as W'. apply ps_link_ok in E as (t1 & _ & _ & _ & _ & _ & ->).
  cbn [ps_links] in H. rewrite alookup_ainsert, str_eqb_refl in H. injection H as <-.
  constructor; cbn [a_ast a_policies a_templates ps_links ps_templates]; [exact W'| |exact T]; intros i.
  rewrite !alookup_ainsert, P. reflexivity.
Qed.

Lemma api_unlink_WF a i a' p :
  WFapi a -> api_unlink a i = OOk (a', p) -> WFapi a' /\ good_policy p.
Proof.
  intros [W P T] H. unfold api_unlink in H. rewrite P in H.
  destruct (alookup i (ps_links (a_ast a))) as [p0|] eqn:EP; [|discriminate].
  destruct (ps_unlink (a_ast a) i) as [[s' q]|e] eqn:E; [|destruct e; discriminate]. injection H as <- <-.
  split; [|exact (proj2 (proj2 (wf_link _ W _ _ EP)))].
  pose proof (ps_unlink_WF _ _ _ _ W E) as W'. apply ps_unlink_ok in E as (_ & _ & l & _ & ->).
  constructor; cbn [a_ast a_policies a_templates ps_links ps_templates]; [exact W'| |exact T]; intros j.
  rewrite !alookup_aremove, P. reflexivity.
Qed.

Lemma api_remove_static_WF a i a' p :
  WFapi a -> api_remove_static a i = OOk (a', p) -> WFapi a' /\ good_policy p.
Proof.
  intros [W P T] H. unfold api_remove_static in H. rewrite P in H.
  destruct (alookup i (ps_links (a_ast a))) as [p0|] eqn:EP; [|discriminate].
  destruct (ps_remove_static (a_ast a) i) as [[s' q]|e] eqn:E; [|discriminate]. injection H as <- <-.
  destruct (wf_link _ W _ _ EP) as (_ & _ & G). split; [|exact G].
  pose proof (ps_remove_static_WF _ _ _ _ W E) as W'. apply ps_remove_static_ok in E as (EL & ET & ->).
  assert (q = p0) as -> by congruence. pose proof (wf_disj _ W _ _ EP ET) as Hs.
  pose proof (WF_static_template _ _ _ W EP Hs) as HT.
  constructor; cbn [a_ast a_policies a_templates ps_links ps_templates]; [exact W'| |]; intros j.
  - rewrite !alookup_aremove, P. reflexivity.
  - rewrite alookup_aremove, T. destruct (str_eqb_spec j i) as [->|_]; [|reflexivity].
    rewrite HT, (good_static _ G Hs). reflexivity.
Qed.

Lemma api_remove_template_WF a i a' :
  WFapi a -> api_remove_template a i = OOk a' -> WFapi a'.
Proof.
  intros [W P T] H. unfold api_remove_template in H.
  destruct (alookup i (a_templates a)); [|discriminate].
  destruct (ps_remove_template (a_ast a) i) as [s'|e] eqn:E; [|destruct e; discriminate]. injection H as <-.
  pose proof (ps_remove_template_WF _ _ _ W E) as W'. apply ps_remove_template_ok in E as (_ & _ & _ & ->).
  constructor; cbn [a_ast a_policies a_templates ps_links ps_templates]; [exact W'|exact P|]; intros j.
  rewrite !alookup_aremove, T. destruct (str_eqb j i); reflexivity.
Qed.

(* the invariant of a history: the set is well formed, and so is every policy object that unlink /
   remove_static handed back (add_stashed adds one of them again) *)
Definition Hinv (h : hstate) : Prop := WFapi (h_api h) /\ Forall good_policy (h_stash h).

Definition no_merge (o : op) : Prop :=
  match o with OpMergeApi _ _ | OpMergeAst _ _ => False | _ => True end.

Lemma Hinv_empty : Hinv empty_h.
Proof. split; [exact WFapi_empty | constructor]. Qed.

Lemma nth_In_default {A} k (l : list A) d : In d l -> In (nth k l d) l.
Proof. intros Hin. destruct (nth_in_or_default k l d) as [H| ->]; assumption. Qed.

Lemma nth_good k (l : list policy) p0 : Forall good_policy l -> In p0 l -> good_policy (nth k l p0).
Proof. intros F Hin. rewrite Forall_forall in F. apply F, nth_In_default, Hin. Qed.

(* every step is a few tests around one operation whose error leaves the state as it is: a failed step
   returns the state unchanged *)
Lemma step_fail_noop {A} (r0 : ores A) (k : A -> hstate * step_result) h h' e r :
  (forall x, fst (snd (k x)) = OOk tt) ->
  match r0 with OOk x => k x | OErr e0 => (h, (OErr e0, [])) end = (h', (OErr e, r)) -> h' = h.
Proof.
  intros K. destruct r0 as [x|e0]; [|intros [= <-]; reflexivity].
  intros E. specialize (K x). rewrite E in K. discriminate K.
Qed.

(* a successful step puts the set `f x` made from the operation's result `x` in place of the old one (`f` is
   the identity at the API level and wraps the core set at the core level); unlink and remove_static also
   stash the policy they return *)
Section StepInv.
  Context {A : Type} (P : apiset -> Prop) (f : A -> apiset) (h : hstate).

  Lemma step_upd (r0 : ores A) :
    P (h_api h) /\ Forall good_policy (h_stash h) -> (forall x, r0 = OOk x -> P (f x)) ->
    let h' := fst (match r0 return hstate * step_result with
                   | OOk x => (mkH (f x) (h_stash h), (OOk tt, []))
                   | OErr e => (h, (OErr e, []))
                   end) in
    P (h_api h') /\ Forall good_policy (h_stash h').
  Proof. intros HI K. destruct r0 as [x|e]; [|exact HI]. split; [exact (K x eq_refl) | exact (proj2 HI)]. Qed.

  Lemma step_stash (r0 : ores (A * policy)) :
    P (h_api h) /\ Forall good_policy (h_stash h) -> (forall x p, r0 = OOk (x, p) -> P (f x) /\ good_policy p) ->
    let h' := fst (match r0 return hstate * step_result with
                   | OOk (x, p) => (mkH (f x) (h_stash h ++ [p]), (OOk tt, []))
                   | OErr e => (h, (OErr e, []))
                   end) in
    P (h_api h') /\ Forall good_policy (h_stash h').
  Proof.
    intros HI K. destruct r0 as [[x p]|e]; [|exact HI]. destruct (K x p eq_refl) as [Px G].
    split; [exact Px|]. apply Forall_app. split; [exact (proj2 HI) | constructor; [exact G | constructor]].
  Qed.
End StepInv.

Lemma api_step_Hinv h o : Hinv h -> no_merge o -> Hinv (fst (api_step h o)).
Proof.
  intros HI NM. pose proof HI as [WA FS]. destruct o; cbn [api_step]; try contradiction.
  - destruct (t_is_static t) eqn:St; [|exact HI]. apply step_upd; [exact HI|].
    exact (fun a => api_add_WF _ _ _ WA (good_static_of t St)).
  - destruct (t_is_static t) eqn:St; [|exact HI]. apply step_upd; [exact HI|].
    exact (fun a => api_add_WF _ _ _ WA (good_static_of t St)).
  - destruct (t_is_static t) eqn:St; [exact HI|]. apply step_upd; [exact HI|].
    exact (fun a => api_add_template_WF _ _ _ WA St).
  - apply step_upd; [exact HI|]. exact (fun a => api_link_WF _ _ _ _ _ WA).
  - apply step_stash; [exact HI|]. exact (fun a p => api_unlink_WF _ _ _ _ WA).
  - apply step_stash; [exact HI|]. exact (fun a p => api_remove_static_WF _ _ _ _ WA).
  - apply step_upd; [exact HI|]. exact (fun a => api_remove_template_WF _ _ _ WA).
  - destruct (h_stash h) as [|p0 st] eqn:ES; [exact HI|]. rewrite <- ES in *. apply step_upd; [exact HI|].
    refine (fun a => api_add_WF _ _ _ WA (nth_good _ _ _ FS _)). rewrite ES. left. reflexivity.
Qed.

Lemma api_history_Hinv ops : forall h,
  Hinv h -> Forall no_merge ops -> Hinv (run_ops api_step ops h).
Proof.
  unfold run_ops. induction ops as [|o ops IH]; intros h HI F; cbn; [exact HI|].
  inversion F; subst. apply IH; [apply api_step_Hinv|]; assumption.
Qed.

Definition CoreInv (h : hstate) : Prop := WF (a_ast (h_api h)) /\ Forall good_policy (h_stash h).

(* the operations on which ast::PolicySet keeps the invariant: no slot-less template is added as a
   template, no template-linked policy object is re-added through `add`, no merge (not proved).
   `link` is not restricted: ps_link itself refuses the body of a present static policy. *)
Definition core_ok (h : hstate) (o : op) : Prop :=
  match o with
  | OpAddTemplate t => t_is_static t = false
  | OpAddStashed _ => forall p, In p (h_stash h) -> plink p = None
  | OpMergeApi _ _ | OpMergeAst _ _ => False
  | _ => True
  end.

Lemma ast_step_CoreInv h o : CoreInv h -> core_ok h o -> CoreInv (fst (ast_step h o)).
Proof.
  intros HI OK. pose proof HI as [W FS]. set (P := fun a : apiset => WF (a_ast a)).
  destruct o; cbn [ast_step]; cbn [core_ok] in OK; try contradiction.
  - destruct (t_is_static t) eqn:St; [|exact HI]. apply (step_upd P); [exact HI|].
    exact (fun s => ps_add_static_WF _ _ _ W St).
  - destruct (t_is_static t) eqn:St; [|exact HI]. apply (step_upd P); [exact HI|].
    exact (fun s => ps_add_WF _ (static_of t) _ W eq_refl (good_static_of t St)).
  - apply (step_upd P); [exact HI|]. exact (fun s => ps_add_template_WF _ _ _ W OK).
  - apply (step_upd P); [exact HI|]. exact (fun s => ps_link_WF _ _ _ _ _ W).
  - apply (step_stash P); [exact HI|]. intros s p E. split; [exact (ps_unlink_WF _ _ _ _ W E)|].
    apply ps_unlink_ok in E as (_ & EL & _). exact (proj2 (proj2 (wf_link _ W _ _ EL))).
  - apply (step_stash P); [exact HI|]. intros s p E. split; [exact (ps_remove_static_WF _ _ _ _ W E)|].
    apply ps_remove_static_ok in E as (EL & _). exact (proj2 (proj2 (wf_link _ W _ _ EL))).
  - apply (step_upd P); [exact HI|]. exact (fun s => ps_remove_template_WF _ _ _ W).
  - destruct (h_stash h) as [|p0 st] eqn:ES; [exact HI|]. rewrite <- ES in *. apply (step_upd P); [exact HI|].
    assert (Hin : In p0 (h_stash h)) by (rewrite ES; left; reflexivity).
    exact (fun s => ps_add_WF _ _ _ W (OK _ (nth_In_default _ _ _ Hin)) (nth_good _ _ _ FS Hin)).
Qed.

(* the witness of c08_wf_refuted_without_it; ast::PolicySet::add checks `links` only *)
Definition wit_u : uid := mkUid [[85%N]] [97%N].
Definition wit_t (i : str) : template := mkTemplate i [] Permit (CEq RefSlot) AAny CAny None.
Definition wit_ops : list op :=
  [OpAddTemplate (wit_t [116%N]); OpLink [116%N] [120%N] [(SlotPrincipal, wit_u)]; OpUnlink [120%N];
   OpAddTemplate (wit_t [120%N]); OpAddStashed 0].
Lemma core_WF_refuted : ~ WF (a_ast (h_api (run_ops ast_step wit_ops empty_h))).
Proof.
  intros W. set (s := a_ast _) in W.
  assert (E : alookup [120%N] (ps_links s) = Some (mkPolicy (wit_t [116%N]) (Some [120%N]) [(SlotPrincipal, wit_u)]))
    by (vm_compute; reflexivity).
  assert (T : alookup [120%N] (ps_templates s) <> None) by (vm_compute; discriminate).
  discriminate (wf_disj _ W _ _ E T).
Qed.
