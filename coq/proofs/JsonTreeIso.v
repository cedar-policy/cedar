(* The JSON tree of the entity/context JSON layer (model/JsonTree.v, C10) and the JSON tree of
   the structured policy formats (model/Json.v, C06) are the same inductive type up to renaming.
   No other file uses the conversions: C06 and C10 are each proved over their own tree. *)
From Coq Require Import List.
From Cedar Require JsonTree Json BaseFacts.
Import ListNotations.

Module T := Cedar.JsonTree.
Module J := Cedar.Json.

Fixpoint to_json (j : T.json) : J.json :=
  match j with
  | T.JNull => J.JNull
  | T.JBool b => J.JBool b
  | T.JInt z => J.JInt z
  | T.JStr s => J.JStr s
  | T.JArr l => J.JArr (map to_json l)
  | T.JObj l => J.JObj (map (fun kv => (fst kv, to_json (snd kv))) l)
  end.

Fixpoint of_json (j : J.json) : T.json :=
  match j with
  | J.JNull => T.JNull
  | J.JBool b => T.JBool b
  | J.JInt z => T.JInt z
  | J.JStr s => T.JStr s
  | J.JArr l => T.JArr (map of_json l)
  | J.JObj l => T.JObj (map (fun kv => (fst kv, of_json (snd kv))) l)
  end.

Theorem json_tree_iso :
  (forall j : T.json, of_json (to_json j) = j) /\ (forall j : J.json, to_json (of_json j) = j).
Proof.
  split; fix IH 1; intros [|b|z|s|l|l]; cbn [to_json of_json]; try reflexivity; f_equal.
  - induction l as [|x l IHl]; [reflexivity|]. cbn [map]. rewrite (IH x), IHl. reflexivity.
  - induction l as [|[k x] l IHl]; [reflexivity|]. cbn [map fst snd]. rewrite (IH x), IHl. reflexivity.
  - induction l as [|x l IHl]; [reflexivity|]. cbn [map]. rewrite (IH x), IHl. reflexivity.
  - induction l as [|[k x] l IHl]; [reflexivity|]. cbn [map fst snd]. rewrite (IH x), IHl. reflexivity.
Qed.
Print Assumptions json_tree_iso.

(* the conversions commute with field lookup (the only operation both layers use on objects) *)
Lemma lookup_to_json : forall k (l : list (Base.str * T.json)),
  Base.lookup k (map (fun kv => (fst kv, to_json (snd kv))) l) = option_map to_json (Base.lookup k l).
Proof. exact (BaseFacts.lookup_map_snd to_json). Qed.
