(* NoPanic.levenshtein (index level, checked accesses) computes the Wagner-Fischer recurrence
   `lev_rec` over prefixes of the two words; that no access panics is a corollary. *)
From Coq Require Import Lia.
From Cedar Require Import NoPanic NoPanicProofs.

(* distance between the first i chars of w1 and the first j chars of w2, for j and i within the
   words (the last arm of the inner match is not reached then) *)
Fixpoint lev_rec (w1 w2 : str) (j : nat) : nat -> N :=
  match j with
  | O => fun i => N.of_nat i
  | S j' => fix row (i : nat) : N :=
      match i with
      | O => N.of_nat (S j')
      | S i' => match nth_error w1 i', nth_error w2 j' with
                | Some c1, Some c2 =>
                    if N.eqb c1 c2 then lev_rec w1 w2 j' i'
                    else (1 + N.min (N.min (row i') (lev_rec w1 w2 j' (S i'))) (lev_rec w1 w2 j' i'))%N
                | _, _ => 0%N
                end
      end
  end.

Lemma lev_rec_0 w1 w2 i : lev_rec w1 w2 0 i = N.of_nat i.
Proof. reflexivity. Qed.
Lemma lev_rec_S0 w1 w2 j : lev_rec w1 w2 (S j) 0 = N.of_nat (S j).
Proof. reflexivity. Qed.
Lemma lev_rec_SS w1 w2 j i c1 c2 : nth_error w1 i = Some c1 -> nth_error w2 j = Some c2 ->
  lev_rec w1 w2 (S j) (S i) =
  if N.eqb c1 c2 then lev_rec w1 w2 j i
  else (1 + N.min (N.min (lev_rec w1 w2 (S j) i) (lev_rec w1 w2 j (S i))) (lev_rec w1 w2 j i))%N.
Proof. intros H1 H2. cbn [lev_rec]. rewrite H1, H2. reflexivity. Qed.

Lemma get2_nth m j i x :
  get2 m j i = POk x <-> exists row, nth_error m j = Some row /\ nth_error row i = Some x.
Proof.
  unfold get2, idx. split.
  - destruct (nth_error m j) as [row|]; cbn [pbind]; [|discriminate].
    destruct (nth_error row i) as [y|] eqn:E; [|discriminate].
    intros H. exists row. split; [reflexivity|congruence].
  - intros [row [Hm Hr]]. rewrite Hm. cbn [pbind]. rewrite Hr. reflexivity.
Qed.

(* all the loops need of the matrix: a store succeeds wherever a load does and changes that cell only *)
Lemma set2_get2 m j i v x : get2 m j i = POk x ->
  exists m', set2 m j i v = POk m' /\
             forall j' i' y, get2 m j' i' = POk y ->
                             get2 m' j' i' = POk (if Nat.eqb j' j && Nat.eqb i' i then v else y).
Proof.
  intros G. apply get2_nth in G. destruct G as [row [Hm Hr]].
  assert (j < List.length m)%nat as Hj by (apply nth_error_Some; congruence).
  assert (i < List.length row)%nat as Hi by (apply nth_error_Some; congruence).
  unfold set2. rewrite (idx_some _ _ _ _ Hm). cbn [pbind].
  rewrite (upd_ok _ _ _ _ Hi). cbn [pbind]. rewrite (upd_ok _ _ _ _ Hj).
  eexists. split; [reflexivity|].
  intros j' i' y Gy. apply get2_nth in Gy. destruct Gy as [r [Hr1 Hr2]].
  apply get2_nth. rewrite (nth_error_store _ _ _ _ Hj).
  destruct (Nat.eqb_spec j' j) as [->|_]; cbn [andb].
  - eexists. split; [reflexivity|]. rewrite (nth_error_store _ _ _ _ Hi).
    destruct (Nat.eqb i' i); congruence.
  - exists r. split; assumption.
Qed.

Lemma get2_zero l2 l1 j i : (j < l2)%nat -> (i < l1)%nat -> get2 (repeat (repeat 0%N l1) l2) j i = POk 0%N.
Proof.
  intros Hj Hi. apply get2_nth. exists (repeat 0%N l1). split; apply nth_error_repeat; assumption.
Qed.

Lemma lev_cell_eq w1 w2 j i m c1 c2 d a b :
  nth_error w1 i = Some c1 -> nth_error w2 j = Some c2 ->
  get2 m j i = POk d -> get2 m (S j) i = POk a -> get2 m j (S i) = POk b ->
  lev_cell w1 w2 (S j) m (S i) =
  set2 m (S j) (S i) (if N.eqb c1 c2 then d else (1 + N.min (N.min a b) d)%N).
Proof.
  intros E1 E2 Gd Ga Gb. unfold lev_cell. rewrite !psub_succ_1. cbn [pbind].
  rewrite (idx_some _ _ _ _ E1), (idx_some _ _ _ _ E2). cbn [pbind].
  rewrite Gd, Ga, Gb. destruct (N.eqb c1 c2); reflexivity.
Qed.

Section Lev.
  Variables w1 w2 : str.
  Notation n1 := (List.length w1).
  Notation n2 := (List.length w2).
  Notation D := (lev_rec w1 w2).

  (* the invariant: every cell can be read, and those in the region R hold the recurrence's value *)
  Definition filled (R : nat -> nat -> Prop) (m : matrix) : Prop :=
    forall j i, (j <= n2 /\ i <= n1)%nat -> exists x, get2 m j i = POk x /\ (R j i -> x = D j i).

  Lemma filled_get (R : nat -> nat -> Prop) m j i :
    filled R m -> (j <= n2 /\ i <= n1)%nat /\ R j i -> get2 m j i = POk (D j i).
  Proof. intros F [Hb HR]. destruct (F j i Hb) as [x [G Hx]]. rewrite G, (Hx HR). reflexivity. Qed.

  Lemma filled_weaken (R R' : nat -> nat -> Prop) m : filled R m ->
    (forall j i, (j <= n2 /\ i <= n1)%nat -> R' j i -> R j i) -> filled R' m.
  Proof.
    intros F Sub j i Hb. destruct (F j i Hb) as [x [G Hx]].
    exists x. split; [exact G|]. intros HR. apply Hx. apply Sub; assumption.
  Qed.

  Lemma filled_set2 (R R' : nat -> nat -> Prop) m j i : filled R m -> (j <= n2 /\ i <= n1)%nat ->
    (forall j' i', R' j' i' -> (j' = j /\ i' = i) \/ R j' i') ->
    exists m', set2 m j i (D j i) = POk m' /\ filled R' m'.
  Proof.
    intros F Hb Sub. destruct (F j i Hb) as [x [G _]].
    destruct (set2_get2 m j i (D j i) x G) as [m' [E G']]. exists m'. split; [exact E|].
    intros j' i' Hb'. destruct (F j' i' Hb') as [y [Gy Hy]].
    eexists. split; [exact (G' j' i' y Gy)|]. intros HR.
    destruct (Sub _ _ HR) as [[-> ->]|HR'].
    - rewrite !Nat.eqb_refl. reflexivity.
    - rewrite (Hy HR').
      destruct (Nat.eqb_spec j' j) as [->|_]; [destruct (Nat.eqb_spec i' i) as [->|_]|]; reflexivity.
  Qed.

  (* the regions written when a loop counter stands at k *)
  Definition row0_to (k : nat) : matrix -> Prop := filled (fun j i => j = 0 /\ i < k)%nat.
  Definition col0_to (k : nat) : matrix -> Prop := filled (fun j i => j = 0 \/ (i = 0 /\ j < k))%nat.
  Definition rows_to (k : nat) : matrix -> Prop := filled (fun j i => j < k \/ i = 0)%nat.
  Definition row_to (j k : nat) : matrix -> Prop := filled (fun j' i => j' < j \/ i = 0 \/ (j' = j /\ i < k))%nat.

  Lemma fill_row0 m : row0_to 1 m ->
    exists m1, pfold (fun m i => set2 m 0 i (N.of_nat i)) (range1 (S n1)) m = POk m1 /\ row0_to (S n1) m1.
  Proof.
    apply (pfold_range1_inv row0_to). intros k m0 Hk F.
    apply (filled_set2 _ _ m0 0 (S k) F); [lia|]. intros j' i' H. lia.
  Qed.

  Lemma fill_col0 m : col0_to 1 m ->
    exists m2, pfold (fun m j => set2 m j 0 (N.of_nat j)) (range1 (S n2)) m = POk m2 /\ col0_to (S n2) m2.
  Proof.
    apply (pfold_range1_inv col0_to). intros k m0 Hk F.
    apply (filled_set2 _ _ m0 (S k) 0 F); [lia|]. intros j' i' H. lia.
  Qed.

  Lemma fill_cell j i m : (j < n2)%nat -> (i < n1)%nat -> row_to (S j) (S i) m ->
    exists m', lev_cell w1 w2 (S j) m (S i) = POk m' /\ row_to (S j) (S (S i)) m'.
  Proof.
    intros Hj Hi F.
    destruct (nth_error_lt w1 i Hi) as [c1 E1]. destruct (nth_error_lt w2 j Hj) as [c2 E2].
    rewrite (lev_cell_eq w1 w2 j i m c1 c2 (D j i) (D (S j) i) (D j (S i)) E1 E2)
      by (apply (filled_get _ m _ _ F); lia).
    rewrite <- (lev_rec_SS w1 w2 j i c1 c2 E1 E2).
    apply (filled_set2 _ _ m (S j) (S i) F); [lia|]. intros j' i' H. lia.
  Qed.

  Lemma fill_row j m : (j < n2)%nat -> rows_to (S j) m ->
    exists m', pfold (lev_cell w1 w2 (S j)) (range1 (S n1)) m = POk m' /\ rows_to (S (S j)) m'.
  Proof.
    intros Hj F.
    destruct (pfold_range1_inv (row_to (S j)) (lev_cell w1 w2 (S j)) n1) with (s := m) as [m' [E F']].
    - intros i m0 Hi. apply fill_cell; assumption.
    - apply (filled_weaken _ _ m F). intros j' i' _ H. lia.
    - exists m'. split; [exact E|]. apply (filled_weaken _ _ m' F'). intros j' i' Hb H. lia.
  Qed.

  Theorem levenshtein_refines : levenshtein w1 w2 = POk (D (List.length w2) (List.length w1)).
  Proof.
    destruct (fill_row0 (repeat (repeat 0%N (S n1)) (S n2))) as [m1 [E1 F1]].
    { intros j i Hb. exists 0%N. split; [apply get2_zero; lia|].
      intros [-> Hi0]. assert (i = 0)%nat as -> by lia. reflexivity. }
    destruct (fill_col0 m1) as [m2 [E2 F2]].
    { apply (filled_weaken _ _ m1 F1). intros j i Hb H. lia. }
    destruct (pfold_range1_inv rows_to (fun m j => pfold (lev_cell w1 w2 j) (range1 (S n1)) m) n2 fill_row m2)
      as [m3 [E3 F3]].
    { apply (filled_weaken _ _ m2 F2). intros j i Hb H. lia. }
    unfold levenshtein. rewrite E1. cbn [pbind]. rewrite E2. cbn [pbind]. rewrite E3. cbn [pbind].
    rewrite !psub_succ_1. cbn [pbind]. apply (filled_get _ m3 _ _ F3). lia.
  Qed.
End Lev.

Lemma lev_rec_diag w : forall n, (n <= List.length w)%nat -> lev_rec w w n n = 0%N.
Proof.
  induction n as [|n IH]; intros H; [reflexivity|].
  destruct (nth_error_lt w n) as [c E]; [lia|].
  rewrite (lev_rec_SS w w n n c c E E). rewrite N.eqb_refl. apply IH. lia.
Qed.

Lemma fuzzy_fold_no_panic key : forall lst acc, exists t, fuzzy_fold key lst acc = POk t.
Proof.
  induction lst as [|w lst IH]; intros acc; cbn [fuzzy_fold].
  - eauto.
  - rewrite levenshtein_refines. cbn [pbind]. apply IH.
Qed.

Theorem fuzzy_fold_minimal key : forall lst acc t, fuzzy_fold key lst acc = POk t ->
  (forall w', In w' lst -> exists d', levenshtein key w' = POk d' /\ (fst t <= d')%N) /\
  (fst t <= fst acc)%N /\
  (t = acc \/ (In (snd t) lst /\ levenshtein key (snd t) = POk (fst t))).
Proof.
  induction lst as [|w lst IH]; intros acc t; cbn [fuzzy_fold].
  - intros H. inversion H. subst t. split; [intros w' []|]. split; [lia|left; reflexivity].
  - destruct (levenshtein key w) as [e|] eqn:E; cbn [pbind]; [|discriminate].
    intros H. apply IH in H. destruct H as [Hall [Hle Hsrc]].
    destruct (N.ltb_spec e (fst acc)) as [Hlt|Hge]; cbn [fst snd] in *.
    + split; [|split].
      * intros w' [<-|Hin].
        -- exists e. split; [exact E|exact Hle].
        -- apply Hall. exact Hin.
      * lia.
      * right. destruct Hsrc as [->|[Hin Hd]]; cbn [fst snd].
        -- split; [left; reflexivity|exact E].
        -- split; [right; exact Hin|exact Hd].
    + split; [|split].
      * intros w' [<-|Hin].
        -- exists e. split; [exact E|lia].
        -- apply Hall. exact Hin.
      * exact Hle.
      * destruct Hsrc as [->|[Hin Hd]].
        -- left. reflexivity.
        -- right. split; [right; exact Hin|exact Hd].
Qed.

(* w = [] is the fold's initial "": only if every candidate is at distance >= usize::MAX,
   impossible for strings that fit in memory *)
Theorem fuzzy_search_candidate : forall key lst maxd w,
  fuzzy_search_limited key lst maxd = POk (Some w) -> In w lst \/ w = [].
Proof.
  intros key lst maxd w. unfold fuzzy_search_limited.
  destruct key as [|c key]; [discriminate|]. destruct lst as [|w0 lst]; [discriminate|].
  destruct (fuzzy_fold (c :: key) (w0 :: lst) (usize_max, [])) as [t|] eqn:E; cbn [pbind]; [|discriminate].
  apply fuzzy_fold_minimal in E. destruct E as [_ [_ E]].
  assert (In (snd t) (w0 :: lst) \/ snd t = []) as Ht by (destruct E as [->|[E _]]; auto).
  destruct maxd as [th|].
  - destruct (N.leb (fst t) th); intros H; inversion H. subst w. exact Ht.
  - intros H. inversion H. subst w. exact Ht.
Qed.
