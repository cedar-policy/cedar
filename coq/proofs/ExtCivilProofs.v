(* No lemma needs the year nonnegative: the divisions round down *)
From Coq Require Import Lia.
From Cedar Require Import ExtParse ExtParseProofs.
Open Scope Z_scope.

Lemma valid_ymd_spec y m d :
  valid_ymd y m d = true <-> 1 <= m <= 12 /\ 1 <= d <= days_in_month y m.
Proof. unfold valid_ymd. rewrite !andb_true_iff, !Z.leb_le. tauto. Qed.

Lemma epoch_day_zero : days_from_civil 1970 1 1 = 0.
Proof. reflexivity. Qed.

Lemma ceil_div_succ k y : 0 < k ->
  (y + k) / k = (y + (k - 1)) / k + (if y mod k =? 0 then 1 else 0).
Proof.
  intros Hk. pose proof (Z.div_mod y k ltac:(lia)) as E. pose proof (Z.mod_pos_bound y k Hk) as B.
  replace (y + k) with (y + 1 * k) by lia. rewrite Z.div_add by lia.
  destruct (Z.eqb_spec (y mod k) 0) as [Z0|NZ].
  - f_equal. apply Z.div_unique with (r := k - 1); lia.
  - rewrite Z.add_0_r. apply Z.div_unique with (r := y mod k - 1); lia.
Qed.

Lemma mod_zero_divisor a n m : 0 < n -> 0 < m -> (n | m) -> a mod m = 0 -> a mod n = 0.
Proof.
  intros Hn Hm D H. apply Z.mod_divide; [lia|]. apply Z.divide_trans with m; [exact D|].
  apply Z.mod_divide; [lia|exact H].
Qed.

Lemma days_before_year_succ y :
  days_before_year (y + 1) = days_before_year y + (if is_leap y then 366 else 365).
Proof.
  unfold days_before_year, is_leap.
  replace (y + 1 + 3) with (y + 4) by lia. replace (y + 1 + 99) with (y + 100) by lia.
  replace (y + 1 + 399) with (y + 400) by lia.
  rewrite (ceil_div_succ 4), (ceil_div_succ 100), (ceil_div_succ 400) by lia.
  change (4 - 1) with 3. change (100 - 1) with 99. change (400 - 1) with 399.
  (* of the eight cases the four that contradict 4 | 100 | 400 are the ones where the sum is off *)
  pose proof (mod_zero_divisor y 100 400 ltac:(lia) ltac:(lia) ltac:(exists 4; reflexivity)) as D1.
  pose proof (mod_zero_divisor y 4 100 ltac:(lia) ltac:(lia) ltac:(exists 25; reflexivity)) as D2.
  destruct (Z.eqb_spec (y mod 4) 0), (Z.eqb_spec (y mod 100) 0), (Z.eqb_spec (y mod 400) 0);
    cbn [andb orb negb]; lia.
Qed.

Lemma days_before_year_mono y y' : y <= y' -> days_before_year y <= days_before_year y'.
Proof.
  revert y'. apply (Z.le_ind (fun k => days_before_year y <= days_before_year k)).
  - intros a b ->. reflexivity.
  - lia.
  - intros k Hk IH. rewrite <- Z.add_1_r, days_before_year_succ. destruct (is_leap k); lia.
Qed.

Lemma days_before_month_succ y m : 1 <= m < 12 ->
  days_before_month y (m + 1) = days_before_month y m + days_in_month y m.
Proof.
  intros H.
  assert (C : m = 1 \/ m = 2 \/ m = 3 \/ m = 4 \/ m = 5 \/ m = 6 \/ m = 7 \/ m = 8 \/ m = 9 \/ m = 10 \/ m = 11) by lia.
  repeat destruct C as [C|C]; subst m.
  all: unfold days_before_month, days_in_month; destruct (is_leap y); reflexivity.
Qed.

Lemma days_before_month_first y : days_before_month y 1 = 0.
Proof. reflexivity. Qed.

Lemma days_before_month_last y :
  days_before_month y 12 + days_in_month y 12 = if is_leap y then 366 else 365.
Proof. unfold days_before_month, days_in_month. destruct (is_leap y); reflexivity. Qed.

Lemma days_before_month_mono y m m' : 1 <= m <= m' -> m' <= 12 ->
  days_before_month y m <= days_before_month y m'.
Proof.
  intros [H1 H2]. revert m' H2.
  apply (Z.le_ind (fun k => k <= 12 -> days_before_month y m <= days_before_month y k)).
  - intros a b ->. reflexivity.
  - lia.
  - intros k Hk IH Hk'. rewrite <- Z.add_1_r, days_before_month_succ by lia.
    pose proof (days_in_month_range y k). lia.
Qed.

Lemma month_before_later y m m' : 1 <= m -> m < m' <= 12 ->
  days_before_month y m + days_in_month y m <= days_before_month y m'.
Proof.
  intros H1 H2. rewrite <- days_before_month_succ by lia. apply days_before_month_mono; lia.
Qed.

Lemma month_within_year y m : 1 <= m <= 12 ->
  0 <= days_before_month y m /\
  days_before_month y m + days_in_month y m <= (if is_leap y then 366 else 365).
Proof.
  intros H. split.
  - rewrite <- (days_before_month_first y). apply days_before_month_mono; lia.
  - rewrite <- days_before_month_last. destruct (Z.eq_dec m 12) as [->|N]; [lia|].
    pose proof (month_before_later y m 12 ltac:(lia) ltac:(lia)).
    pose proof (days_in_month_range y 12). lia.
Qed.

Theorem days_from_civil_next y m d :
  valid_ymd y m d = true ->
  let '(y', m', d') := next_date y m d in
  valid_ymd y' m' d' = true /\ days_from_civil y' m' d' = days_from_civil y m d + 1.
Proof.
  intros V. apply valid_ymd_spec in V. destruct V as [M D].
  unfold next_date, days_from_civil.
  destruct (Z.ltb_spec d (days_in_month y m)) as [Ld|Ld].
  - split; [apply valid_ymd_spec|]; lia.
  - destruct (Z.ltb_spec m 12) as [Lm|Lm]; (split; [apply valid_ymd_spec|]).
    + pose proof (days_in_month_range y (m + 1)). lia.
    + rewrite days_before_month_succ by lia. lia.
    + pose proof (days_in_month_range (y + 1) 1). lia.
    + assert (m = 12) by lia. subst m. pose proof (days_before_month_last y).
      rewrite days_before_year_succ, days_before_month_first. lia.
Qed.

Theorem days_from_civil_monotone y m d y' m' d' :
  valid_ymd y m d = true -> valid_ymd y' m' d' = true ->
  (y < y' \/ (y = y' /\ (m < m' \/ (m = m' /\ d < d')))) ->
  days_from_civil y m d < days_from_civil y' m' d'.
Proof.
  intros V V' L. apply valid_ymd_spec in V, V'. destruct V as [M D], V' as [M' D'].
  unfold days_from_civil.
  pose proof (month_within_year y m M) as [_ B]. pose proof (month_within_year y' m' M') as [B' _].
  destruct L as [L|[-> [L|[-> L]]]].
  - pose proof (days_before_year_succ y). pose proof (days_before_year_mono (y + 1) y' ltac:(lia)).
    lia.
  - pose proof (month_before_later y' m m' ltac:(lia) ltac:(lia)). lia.
  - lia.
Qed.

Theorem days_from_civil_injective y m d y' m' d' :
  valid_ymd y m d = true -> valid_ymd y' m' d' = true ->
  days_from_civil y m d = days_from_civil y' m' d' -> y = y' /\ m = m' /\ d = d'.
Proof.
  intros V V' E.
  assert (T : (y < y' \/ (y = y' /\ (m < m' \/ (m = m' /\ d < d')))) \/
              (y = y' /\ m = m' /\ d = d') \/
              (y' < y \/ (y' = y /\ (m' < m \/ (m' = m /\ d' < d))))) by lia.
  destruct T as [L|[T|L]]; [|exact T|].
  - pose proof (days_from_civil_monotone y m d y' m' d' V V' L). lia.
  - pose proof (days_from_civil_monotone y' m' d' y m d V' V L). lia.
Qed.
