(* C18 (model/SymLit.v): encoding an i64 as a 64-bit vector commutes with the wrapped operations; the verdict of a
   verification condition reflects the boolean it encodes; compiled literal expressions evaluate as `eval` does (`rel`). *)
From Coq Require Import Lia.
From Cedar Require Import SymLit BaseFacts.
Open Scope Z_scope.

Lemma i64_two63 : i64_min = - two63 /\ i64_max = two63 - 1 /\ two64 = 2 * two63 /\ 0 < two63.
Proof. repeat split. Qed.

Lemma bv_of_int_range : forall z, 0 <= bv_of_int z < two64.
Proof. intros z. apply Z.mod_pos_bound. reflexivity. Qed.

Lemma bv_to_of : forall z, in_i64 z = true -> bv_to_int (bv_of_int z) = z.
Proof.
  intros z H. apply in_i64_bounds in H. change (i64_min <= z <= i64_max) in H.
  destruct i64_two63 as (Emin & Emax & E64 & Hpos).
  unfold bv_to_int, bv_of_int. destruct (Z.neg_nonneg_cases z) as [N|N].
  - rewrite <- (Z_mod_plus_full z 1 two64), Z.mod_small by lia.
    destruct (Z.ltb_spec (z + 1 * two64) two63); lia.
  - rewrite Z.mod_small by lia. destruct (Z.ltb_spec z two63); lia.
Qed.

Lemma bv_overflows_in_i64 : forall i, bv_overflows i = negb (in_i64 i).
Proof.
  intros i. unfold bv_overflows, in_i64. rewrite negb_andb, !Z.leb_antisym, !negb_involutive. reflexivity.
Qed.

Lemma bvadd_hom : forall a b, bvadd (bv_of_int a) (bv_of_int b) = bv_of_int (a + b).
Proof. intros. unfold bvadd, bv_of_int. symmetry. apply Zplus_mod. Qed.

Lemma bvmul_hom : forall a b, bvmul (bv_of_int a) (bv_of_int b) = bv_of_int (a * b).
Proof. intros. unfold bvmul, bv_of_int. symmetry. apply Zmult_mod. Qed.

Lemma bvneg_hom : forall a, bvneg (bv_of_int a) = bv_of_int (- a).
Proof.
  intros. unfold bvneg, bvadd, bvnot, bv_of_int.
  replace (two64 - 1 - a mod two64 + 1) with (two64 - a mod two64) by ring.
  rewrite Zminus_mod_idemp_r. replace (two64 - a) with (- a + 1 * two64) by ring. apply Z_mod_plus_full.
Qed.

Lemma bvsub_hom : forall a b, bvsub (bv_of_int a) (bv_of_int b) = bv_of_int (a - b).
Proof.
  intros. unfold bvsub. rewrite bvneg_hom, bvadd_hom. reflexivity.
Qed.

(* `op`: +, -, * for bvsaddo, bvssubo, bvsmulo; `fun x _ => - x` for bvnego *)
Lemma overflows_hom : forall (op : Z -> Z -> Z) a b, in_i64 a = true -> in_i64 b = true ->
  bv_overflows (op (bv_to_int (bv_of_int a)) (bv_to_int (bv_of_int b))) = negb (in_i64 (op a b)).
Proof. intros op a b Ha Hb. rewrite !bv_to_of by assumption. apply bv_overflows_in_i64. Qed.

Lemma bv_of_int_inj : forall a b, in_i64 a = true -> in_i64 b = true -> bv_of_int a = bv_of_int b -> a = b.
Proof.
  intros a b Ha Hb H. rewrite <- (bv_to_of a Ha), <- (bv_to_of b Hb). now rewrite H.
Qed.

Lemma bv_cmp : forall a b, in_i64 a = true -> in_i64 b = true ->
  bvslt (bv_of_int a) (bv_of_int b) = (a <? b) /\
  bvsle (bv_of_int a) (bv_of_int b) = (a <=? b) /\
  lit_eqb (LBv (bv_of_int a)) (LBv (bv_of_int b)) = (a =? b).
Proof.
  intros a b Ha Hb. unfold bvslt, bvsle. rewrite !bv_to_of by assumption. repeat split.
  cbn [lit_eqb]. destruct (Z.eqb_spec a b) as [->|N].
  - apply Z.eqb_refl.
  - apply Z.eqb_neq. intro E. apply N. now apply bv_of_int_inj.
Qed.

Lemma existsb_negb_all_true : forall l, forallb (fun b => b) l = true -> existsb negb l = false.
Proof. induction l as [|x l IH]; cbn; auto. intros H. apply andb_prop in H as [-> H]. cbn. auto. Qed.

Lemma verdict_vc : forall enf phi, forallb (fun b => b) enf = true ->
  (verdict_of (vc enf phi) = Unsat <-> phi = true).
Proof.
  intros enf phi H. unfold vc, verdict_of. destruct phi; cbn.
  - tauto.
  - rewrite existsb_app, existsb_negb_all_true by assumption. cbn. split; discriminate.
Qed.

Lemma verdict_vc_iff : forall enf phi (P : Prop), forallb (fun b => b) enf = true ->
  (phi = true <-> P) -> (verdict_of (vc enf phi) = Unsat <-> P).
Proof. intros enf phi P H HP. rewrite (verdict_vc enf phi H). exact HP. Qed.

Lemma imp_true_iff : forall d1 d2, negb d1 || d2 = true <-> (d1 = true -> d2 = true).
Proof. intros [|] [|]; cbn; intuition discriminate. Qed.

Lemma nand_true_iff : forall d1 d2, negb (d1 && d2) = true <-> ~ (d1 = true /\ d2 = true).
Proof. intros [|] [|]; cbn; intuition discriminate. Qed.

Lemma matches_t_iff : forall t, matches_t t = true <-> t = TSome (LBool true).
Proof.
  intros [l|ty]; cbn.
  - destruct l as [[|]| | |]; cbn; split; intro H; try discriminate; try reflexivity; inversion H.
  - split; discriminate.
Qed.

Lemma verify_single : forall enf t, forallb (fun b => b) enf = true ->
  (verdict_of (verify_never_errors enf t) = Unsat <-> exists l, t = TSome l) /\
  (verdict_of (verify_always_matches enf t) = Unsat <-> t = TSome (LBool true)) /\
  (verdict_of (verify_never_matches enf t) = Unsat <-> t <> TSome (LBool true)).
Proof.
  intros enf t H. split; [|split]; apply (verdict_vc_iff _ _ _ H).
  - destruct t; cbn; split; [eauto | reflexivity | discriminate | intros [l E]; discriminate E].
  - apply matches_t_iff.
  - rewrite negb_true_iff, <- not_true_iff_false, matches_t_iff. reflexivity.
Qed.

Lemma verify_authz : forall enf d1 d2, forallb (fun b => b) enf = true ->
  (verdict_of (verify_always_allows enf d1) = Unsat <-> d1 = true) /\
  (verdict_of (verify_always_denies enf d1) = Unsat <-> d1 = false) /\
  (verdict_of (verify_implies enf d1 d2) = Unsat <-> (d1 = true -> d2 = true)) /\
  (verdict_of (verify_equivalent enf d1 d2) = Unsat <-> d1 = d2) /\
  (verdict_of (verify_disjoint enf d1 d2) = Unsat <-> ~ (d1 = true /\ d2 = true)).
Proof.
  intros enf d1 d2 H. split; [|split; [|split; [|split]]]; apply (verdict_vc_iff _ _ _ H).
  - reflexivity.
  - rewrite orb_false_r. apply negb_true_iff.
  - apply imp_true_iff.
  - apply eqb_true_iff.
  - apply nand_true_iff.
Qed.

Fixpoint lits_ok (e : expr) : bool :=
  match e with
  | Lit (PLong z) => in_i64 z
  | If a b c => lits_ok a && lits_ok b && lits_ok c
  | And a b | Or a b | BinApp _ a b => lits_ok a && lits_ok b
  | UnApp _ a | Like a _ | Is a _ => lits_ok a
  | _ => true
  end.

(* Long values are in range: invariant of the evaluator *)
Definition rel (r : res value) (t : oterm) : Prop :=
  match r with
  | Ok (VPrim (PLong z)) => in_i64 z = true /\ t = TSome (LBv (bv_of_int z))
  | Ok (VPrim p) => t = TSome (lit_of_prim p)
  | Ok _ => False
  | Err _ => exists ty, t = TNone ty
  end.

Definition prim_in_range (p : prim) : Prop := forall z, p = PLong z -> in_i64 z = true.

Lemma rel_prim : forall p, (forall z, p = PLong z -> in_i64 z = true) -> rel (Ok (VPrim p)) (TSome (lit_of_prim p)).
Proof. intros [b|z|s|u] H; cbn; auto. Qed.

Lemma rel_error : forall e ty, rel (Err e) (TNone ty).
Proof. intros e ty. exists ty. reflexivity. Qed.

(* destructing `rel_inv _ _ H` gives the result and the term together *)
Inductive rel_cases : res value -> oterm -> Prop :=
| rel_case_prim p : prim_in_range p -> rel_cases (Ok (VPrim p)) (TSome (lit_of_prim p))
| rel_case_error e ty : rel_cases (Err e) (TNone ty).

Lemma rel_inv : forall r t, rel r t -> rel_cases r t.
Proof.
  intros [[[b|z|s|u]| | |]|e] t H; cbn in H; try contradiction.
  - subst t. apply (rel_case_prim (PBool b)). discriminate.
  - destruct H as [R ->]. apply (rel_case_prim (PLong z)). intros z' E. injection E as <-. exact R.
  - subst t. apply (rel_case_prim (PString s)). discriminate.
  - subst t. apply (rel_case_prim (PEntity u)). discriminate.
  - destruct H as [ty ->]. constructor.
Qed.

Lemma prim_lit_eqb : forall p q,
  prim_in_range p -> prim_in_range q ->
  lit_eqb (lit_of_prim p) (lit_of_prim q) = prim_eqb p q.
Proof.
  intros [a|a|a|a] [b|b|b|b] Hp Hq; cbn; auto.
  exact (proj2 (proj2 (bv_cmp a b (Hp _ eq_refl) (Hq _ eq_refl)))).
Qed.

Lemma checked_ok : forall o w r, o = negb (in_i64 r) -> w = bv_of_int r ->
  rel (checked r) (f_if_false o (LBv w)).
Proof.
  intros o w r -> ->. unfold checked, f_if_false. destruct (in_i64 r) eqn:E.
  - split; [exact E | reflexivity].
  - apply rel_error.
Qed.

Lemma app2_ok : forall es op p1 p2 rty,
  prim_in_range p1 -> prim_in_range p2 ->
  binop_covered op = true ->
  app2_ty op (lit_ty (lit_of_prim p1)) (lit_ty (lit_of_prim p2)) = Some rty ->
  rel (binary_app es op (VPrim p1) (VPrim p2)) (app2_val op (lit_of_prim p1) (lit_of_prim p2)).
Proof.
  intros es op p1 p2 rty H1 H2 Hc Ht.
  destruct op; try discriminate Hc; cbn [binary_app].
  1: { cbn [app2_val value_eqb]. rewrite prim_lit_eqb by assumption. reflexivity. }
  all: destruct p1 as [|x| |]; try discriminate Ht.
  all: destruct p2 as [|y| |]; try discriminate Ht.
  all: pose proof (H1 _ eq_refl) as Hx; pose proof (H2 _ eq_refl) as Hy.
  - cbn. rewrite (proj1 (bv_cmp x y Hx Hy)). reflexivity.
  - cbn. rewrite (proj1 (proj2 (bv_cmp x y Hx Hy))). reflexivity.
  - apply checked_ok; [exact (overflows_hom Z.add x y Hx Hy) | apply bvadd_hom].
  - apply checked_ok; [exact (overflows_hom Z.sub x y Hx Hy) | apply bvsub_hom].
  - apply checked_ok; [exact (overflows_hom Z.mul x y Hx Hy) | apply bvmul_hom].
Qed.

Lemma app1_ok : forall op p rty,
  prim_in_range p ->
  app1_ty op (lit_ty (lit_of_prim p)) = Some rty ->
  rel (unary_app op (VPrim p)) (app1_val op (lit_of_prim p)).
Proof.
  intros op p rty H Ht. destruct op, p as [|x| |]; try discriminate Ht.
  - reflexivity.
  - apply checked_ok; [exact (overflows_hom (fun a _ => - a) x x (H _ eq_refl) (H _ eq_refl)) | apply bvneg_hom].
Qed.

Lemma lit_of_prim_inv : forall p,
  match lit_of_prim p with
  | LBool b => p = PBool b
  | LBv w => exists z, p = PLong z /\ w = bv_of_int z
  | LStr s => p = PString s
  | LEnt u => p = PEntity u
  end.
Proof. intros [b|z|s|u]; cbn; eauto. Qed.

Lemma lit_of_prim_bool : forall p b, LBool b = lit_of_prim p -> p = PBool b.
Proof. intros p b H. pose proof (lit_of_prim_inv p) as I. rewrite <- H in I. exact I. Qed.
Lemma lit_of_prim_str : forall p s, LStr s = lit_of_prim p -> p = PString s.
Proof. intros p s H. pose proof (lit_of_prim_inv p) as I. rewrite <- H in I. exact I. Qed.
Lemma lit_of_prim_ent_ty : forall p t, lit_ty (lit_of_prim p) = TyEnt t -> exists u, p = PEntity u /\ uty u = t.
Proof.
  intros p t H. pose proof (lit_of_prim_inv p) as I.
  destruct (lit_of_prim p) as [| | |u]; try discriminate H. injection H as H. exists u. split; assumption.
Qed.

(* each lemma about a construct first abstracts the results of the subexpressions (`generalize`): the rest is a
   case analysis on variables *)
Section Constructs.
  Variables (valid : uid -> bool) (sl : slotenv) (q : request) (es : entities).
  Definition agrees (e : expr) : Prop := forall t, compile_lit valid q e = COk t -> rel (eval sl q es e) t.

  Lemma rel_as_bool : forall r t, rel r t -> oterm_ty t = TyBool ->
    rel (do v <- r; do y <- as_bool v; Ok (VBool y)) t.
  Proof.
    intros r t H T. destruct (rel_inv _ _ H) as [p _|e ty]; [|apply rel_error].
    destruct p; try discriminate T. reflexivity.
  Qed.

  Lemma if_ok : forall a b c, agrees a -> agrees b -> agrees c -> agrees (If a b c).
  Proof.
    intros a b c. unfold agrees. cbn [compile_lit eval].
    generalize (eval sl q es a) (eval sl q es b) (eval sl q es c)
               (compile_lit valid q a) (compile_lit valid q b) (compile_lit valid q c).
    intros r1 r2 r3 [t1| |] c2 c3 H1 H2 H3 t; try discriminate.
    destruct (rel_inv _ _ (H1 t1 eq_refl)) as [p1 _|e1 ty1].
    - destruct p1 as [[|]| | |]; try discriminate; [apply H2 | apply H3].
    - destruct ty1; try discriminate.
      destruct c2; try discriminate.
      destruct c3; try discriminate.
      cbn [lit_of_prim oterm_ty lit_ty].
      destruct (tty_eqb _ _); try discriminate.
      intros C. injection C as <-. apply rel_error.
  Qed.

  Lemma and_or_ok : forall a b, agrees a -> agrees b -> agrees (And a b) /\ agrees (Or a b).
  Proof.
    intros a b Ha Hb.
    split; revert Ha Hb; unfold agrees; cbn [compile_lit eval].
    all: generalize (eval sl q es a) (eval sl q es b) (compile_lit valid q a) (compile_lit valid q b).
    all: intros r1 r2 [t1| |] c2 H1 H2 t; try discriminate.
    (* for And, then Or: `a` is true, is false, fails *)
    all: destruct (rel_inv _ _ (H1 t1 eq_refl)) as [[[|]| | |] _|e1 []]; try discriminate.
    (* `a` decides alone *)
    2, 4: intros C; injection C as <-; reflexivity.
    all: destruct c2 as [t2| |]; try discriminate.
    all: cbn [lit_of_prim oterm_ty lit_ty].
    all: destruct (oterm_ty t2) eqn:T; try discriminate.
    all: intros C; injection C as <-.
    1, 3: exact (rel_as_bool _ _ (H2 t2 eq_refl) T).
    all: apply rel_error.
  Qed.

  Lemma unapp_ok : forall op a, agrees a -> agrees (UnApp op a).
  Proof.
    intros op a. unfold agrees. cbn [eval].
    destruct op; cbn [compile_lit]; try discriminate.
    all: generalize (eval sl q es a) (compile_lit valid q a).
    all: intros r1 [t1| |] H1 t; try discriminate.
    all: destruct (rel_inv _ _ (H1 t1 eq_refl)) as [p1 R1|e1 ty1]; cbn [oterm_ty bind].
    all: destruct (app1_ty _ _) eqn:T; try discriminate.
    all: intros C; injection C as <-.
    1, 3: exact (app1_ok _ _ _ R1 T).
    all: apply rel_error.
  Qed.

  Lemma binapp_ok : forall op a b, agrees a -> agrees b -> agrees (BinApp op a b).
  Proof.
    intros op a b. unfold agrees. cbn [compile_lit eval].
    destruct (binop_covered op) eqn:Hc; try discriminate.
    generalize (eval sl q es a) (eval sl q es b) (compile_lit valid q a) (compile_lit valid q b).
    intros r1 r2 [t1| |] [t2| |] H1 H2 t; try discriminate.
    destruct (app2_ty op (oterm_ty t1) (oterm_ty t2)) as [rty|] eqn:T; try discriminate.
    intros C. injection C as <-.
    destruct (rel_inv _ _ (H1 t1 eq_refl)) as [p1 R1|e1 ty1]; [|apply rel_error].
    destruct (rel_inv _ _ (H2 t2 eq_refl)) as [p2 R2|e2 ty2]; [|apply rel_error].
    exact (app2_ok es op p1 p2 rty R1 R2 Hc T).
  Qed.

  Lemma like_is_ok : forall a, agrees a -> (forall p, agrees (Like a p)) /\ (forall ety, agrees (Is a ety)).
  Proof.
    intros a Ha.
    split; intros x; revert Ha; unfold agrees; cbn [compile_lit eval].
    all: generalize (eval sl q es a) (compile_lit valid q a).
    all: intros r1 [t1| |] H1 t; try discriminate.
    all: destruct (rel_inv _ _ (H1 t1 eq_refl)) as [[| | |] _|e1 []]; try discriminate.
    all: intros C; injection C as <-.
    2, 4: apply rel_error.
    - reflexivity.
    - cbn. rewrite name_eqb_sym. reflexivity.
  Qed.
End Constructs.

Lemma compile_eval : forall valid sl q es e t,
  lits_ok e = true -> compile_lit valid q e = COk t -> rel (eval sl q es e) t.
Proof.
  intros valid sl q es e.
  induction e as [p|v| |
                  |e1 IH1 e2 IH2 e3 IH3|e1 IH1 e2 IH2|e1 IH1 e2 IH2
                  |op e IH|op e1 IH1 e2 IH2| | |
                  |e IH pat|e IH ety| | ];
    intros t L; cbn [lits_ok] in L; try discriminate.
  - intros C.
    assert (t = TSome (lit_of_prim p)) as ->
      by (destruct p as [| | |u]; cbn [compile_lit lit_of_prim] in *; try destruct (valid u); congruence).
    apply rel_prim. intros z ->. exact L.
  - destruct v; try discriminate; intros C; injection C as <-; reflexivity.
  - apply andb_prop in L as [L L3]. apply andb_prop in L as [L1 L2].
    exact (if_ok valid sl q es e1 e2 e3 (fun t => IH1 t L1) (fun t => IH2 t L2) (fun t => IH3 t L3) t).
  - apply andb_prop in L as [L1 L2].
    exact (proj1 (and_or_ok valid sl q es e1 e2 (fun t => IH1 t L1) (fun t => IH2 t L2)) t).
  - apply andb_prop in L as [L1 L2].
    exact (proj2 (and_or_ok valid sl q es e1 e2 (fun t => IH1 t L1) (fun t => IH2 t L2)) t).
  - exact (unapp_ok valid sl q es op e (fun t => IH t L) t).
  - apply andb_prop in L as [L1 L2].
    exact (binapp_ok valid sl q es op e1 e2 (fun t => IH1 t L1) (fun t => IH2 t L2) t).
  - exact (proj1 (like_is_ok valid sl q es e (fun t => IH t L)) pat t).
  - exact (proj2 (like_is_ok valid sl q es e (fun t => IH t L)) ety t).
Qed.
