(* Level K returns the result of level K+1 unless its operator follows (levels 0 and 6: unless `if`,
   ! or - comes first): a result at K is one at every L <= K, given follow_ok L rest. *)
From Coq Require Import Lia String.
From Cedar Require Import Printable.
Open Scope N_scope.

Definition head_plain (ts : list token) : bool :=
  match ts with TBang :: _ | TMinus :: _ => false | _ => true end.
Definition not_if_head (ts : list token) : bool :=
  match ts with TIdent s :: _ => negb (kw "if" s) | _ => true end.

Lemma follow_mono L K rest : follow_ok L rest = true -> (L <= K)%nat -> follow_ok K rest = true.
Proof.
  unfold follow_ok. destruct rest as [|t ?]; [reflexivity|]. destruct (cont_level t); [|reflexivity].
  intros H HL. apply Nat.ltb_lt in H. apply Nat.ltb_lt. lia.
Qed.

Lemma follow_mul rest : follow_ok 5 rest = true -> mul_start rest = false.
Proof. destruct rest as [|[] ?]; cbn; intros H; try reflexivity; discriminate. Qed.
Lemma follow_add rest : follow_ok 4 rest = true -> add_start rest = false.
Proof. destruct rest as [|[] ?]; cbn; intros H; try reflexivity; discriminate. Qed.
Lemma follow_rel rest : follow_ok 3 rest = true -> rel_continues rest = false.
Proof.
  destruct rest as [|t ?]; [reflexivity|]. unfold follow_ok, rel_continues.
  destruct t; cbn; intros H; try reflexivity; try discriminate.
  destruct (kw "in" s); [discriminate|]. cbn.
  destruct (kw "has" s || kw "like" s || kw "is" s); [discriminate|reflexivity].
Qed.

Lemma follow_and rest : follow_ok 2 rest = true -> match rest with TAndAnd :: _ => False | _ => True end.
Proof. destruct rest as [|[] ?]; cbn; intros H; try exact I; discriminate. Qed.
Lemma follow_or rest : follow_ok 1 rest = true -> match rest with TOrOr :: _ => False | _ => True end.
Proof. destruct rest as [|[] ?]; cbn; intros H; try exact I; discriminate. Qed.

Lemma plain_counts ts : head_plain ts = true ->
  count_tok is_bang ts = (O, ts) /\ count_tok is_minus ts = (O, ts).
Proof. destruct ts as [|[] ?]; intros H; try discriminate H; split; reflexivity. Qed.

Section Descent.
  Variable rec : list token -> pres.
  Variable fuel : nat.

  Lemma step6 ts r rest :
    parse_member rec fuel ts = Some (r, rest) -> head_plain ts = true -> parse_unary rec fuel ts = Some (r, rest).
  Proof.
    intros H Hp. destruct (plain_counts ts Hp) as [Hb Hm]. unfold parse_unary. rewrite Hb, Hm. exact H.
  Qed.

  Lemma step5 ts r rest :
    parse_unary rec fuel ts = Some (r, rest) -> follow_ok 5 rest = true -> parse_mul rec fuel ts = Some (r, rest).
  Proof. intros H Hf. unfold parse_mul. rewrite H, (follow_mul _ Hf). reflexivity. Qed.
  Lemma step4 ts r rest :
    parse_mul rec fuel ts = Some (r, rest) -> follow_ok 4 rest = true -> parse_add rec fuel ts = Some (r, rest).
  Proof. intros H Hf. unfold parse_add. rewrite H, (follow_add _ Hf). reflexivity. Qed.
  Lemma step3 ts r rest :
    parse_add rec fuel ts = Some (r, rest) -> follow_ok 3 rest = true -> parse_rel rec fuel ts = Some (r, rest).
  Proof.
    intros H Hf. unfold parse_rel. rewrite H. pose proof (follow_rel _ Hf) as Hc.
    destruct rest as [|t ts2]; [reflexivity|]. unfold rel_continues in Hc.
    destruct (relop_of t); [discriminate|].
    destruct t; try reflexivity.
    apply orb_false_elim in Hc. destruct Hc as [Hc H3]. apply orb_false_elim in Hc. destruct Hc as [H1 H2].
    rewrite H1, H2, H3. reflexivity.
  Qed.

  Lemma step2 ts r rest :
    parse_rel rec fuel ts = Some (r, rest) -> follow_ok 2 rest = true -> parse_and rec fuel ts = Some (r, rest).
  Proof.
    intros H Hf. unfold parse_and. rewrite H. pose proof (follow_and _ Hf) as Hc.
    destruct rest as [|[] ?]; try reflexivity; contradiction.
  Qed.

  Lemma step1 ts r rest :
    parse_and rec fuel ts = Some (r, rest) -> follow_ok 1 rest = true -> parse_or rec fuel ts = Some (r, rest).
  Proof.
    intros H Hf. unfold parse_or. rewrite H. pose proof (follow_or _ Hf) as Hc.
    destruct rest as [|[] ?]; try reflexivity; contradiction.
  Qed.

  Lemma step0 ts r rest :
    parse_or rec fuel ts = Some (r, rest) -> not_if_head ts = true -> parse_expr_body rec fuel ts = Some (r, rest).
  Proof.
    intros H Hn. unfold parse_expr_body. destruct ts as [|[] ?]; try exact H.
    cbn in Hn. apply negb_true_iff in Hn. rewrite Hn. exact H.
  Qed.

  Lemma descend_step K ts r rest :
    parse_at (S K) rec fuel ts = Some (r, rest) -> follow_ok K rest = true ->
    (K = 6%nat -> head_plain ts = true) -> (K = 0%nat -> not_if_head ts = true) ->
    parse_at K rec fuel ts = Some (r, rest).
  Proof.
    intros H Hf Hp Hn. destruct K as [|[|[|[|[|[|[|K]]]]]]]; cbn [parse_at] in *.
    - apply step0; [exact H|apply Hn; reflexivity].
    - apply step1; assumption.
    - apply step2; assumption.
    - apply step3; assumption.
    - apply step4; assumption.
    - apply step5; assumption.
    - apply step6; [exact H|apply Hp; reflexivity].
    - exact H.
  Qed.

  Lemma descend K L ts r rest :
    parse_at K rec fuel ts = Some (r, rest) -> (L <= K)%nat -> (K <= 7)%nat ->
    follow_ok L rest = true -> (K = 7%nat -> head_plain ts = true) -> not_if_head ts = true ->
    parse_at L rec fuel ts = Some (r, rest).
  Proof.
    intros H HLK. revert H. induction HLK as [|K HLK IH]; intros H HK Hf Hp Hn; [exact H|].
    apply IH; [|lia|exact Hf|lia|exact Hn].
    apply descend_step; [exact H|exact (follow_mono L K rest Hf HLK)| |intros _; exact Hn].
    intros E. apply Hp. rewrite E. reflexivity.
  Qed.
End Descent.
