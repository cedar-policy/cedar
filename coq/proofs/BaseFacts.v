From Coq Require Import Permutation.
From Cedar Require Import Syntax.

Lemma existsb_ext_in {A} (f g : A -> bool) l : (forall x, In x l -> f x = g x) -> existsb f l = existsb g l.
Proof.
  induction l as [|x l IH]; intros H; [reflexivity|]. cbn [existsb].
  rewrite (H x (or_introl eq_refl)), IH; [reflexivity|]. intros y Hy. apply H. right. exact Hy.
Qed.

Lemma existsb_ext {A} (f g : A -> bool) l : (forall x, f x = g x) -> existsb f l = existsb g l.
Proof. intros H. apply existsb_ext_in. intros x _. apply H. Qed.

Lemma forallb_ext_in {A} (f g : A -> bool) l : (forall x, In x l -> f x = g x) -> forallb f l = forallb g l.
Proof.
  induction l as [|x l IH]; intros H; [reflexivity|]. cbn [forallb].
  rewrite (H x (or_introl eq_refl)), IH; [reflexivity|]. intros y Hy. apply H. right. exact Hy.
Qed.

Lemma forallb_ext {A} (f g : A -> bool) l : (forall x, f x = g x) -> forallb f l = forallb g l.
Proof. intros H. apply forallb_ext_in. intros x _. apply H. Qed.

Lemma forallb_map_ok {A B} (p : B -> bool) (g : A -> B) l :
  Forall (fun x => p (g x) = true) l -> forallb p (map g l) = true.
Proof. induction 1 as [|x l Hx _ IH]; [reflexivity|]. cbn [map forallb]. rewrite Hx, IH. reflexivity. Qed.

Lemma Forall_forallb_mp {A} {P : A -> Prop} {w : A -> bool} {l} :
  Forall (fun x => w x = true -> P x) l -> forallb w l = true -> Forall P l.
Proof.
  intros H Hw. rewrite forallb_forall in Hw. rewrite Forall_forall in *. auto.
Qed.

Lemma forallb_Forall2 {A B} (R : A -> B -> Prop) (f : A -> bool) (g : B -> bool) l1 l2 :
  Forall2 R l1 l2 -> (forall a b, In a l1 -> R a b -> f a = g b) -> forallb f l1 = forallb g l2.
Proof.
  induction 1 as [|a b l1 l2 Hab HF IH]; intros H; cbn [forallb]; [reflexivity|].
  rewrite (H a b (or_introl eq_refl) Hab), IH; [reflexivity|].
  intros a' b' Hin. apply H. right; exact Hin.
Qed.

Lemma forallb_negb {A} (f : A -> bool) l : forallb (fun x => negb (f x)) l = negb (existsb f l).
Proof. induction l as [|x l IH]; cbn; [reflexivity|]. rewrite IH. destruct (f x); reflexivity. Qed.

Lemma forallb_false_ex {A} (f : A -> bool) l : forallb f l = false -> exists x, In x l /\ f x = false.
Proof.
  induction l as [|x l IH]; cbn [forallb]; [discriminate|].
  destruct (f x) eqn:E; cbn [andb].
  - intros H. destruct (IH H) as [y [Hy Fy]]. exists y. split; [right; exact Hy | exact Fy].
  - intros _. exists x. split; [left; reflexivity | exact E].
Qed.

Lemma existsb_orb {A} (f g : A -> bool) l : existsb (fun x => f x || g x) l = existsb f l || existsb g l.
Proof.
  induction l as [|x l IH]; cbn [existsb]; [reflexivity|]. rewrite IH.
  destruct (f x), (g x); cbn [orb]; rewrite ?orb_true_r; reflexivity.
Qed.

Lemma existsb_perm {A} (f : A -> bool) l l' : Permutation l l' -> existsb f l = existsb f l'.
Proof.
  induction 1 as [|x l l' _ IH|x y l|l l' l'' _ IH1 _ IH2]; cbn [existsb].
  - reflexivity.
  - rewrite IH. reflexivity.
  - rewrite !orb_assoc, (orb_comm (f y)). reflexivity.
  - rewrite IH1. exact IH2.
Qed.

(* a `fix`, not a lemma: the guard checker must see through it where an induction principle recurses under a list *)
Definition Forall_all {A} {P : A -> Prop} (f : forall x, P x) : forall l, Forall P l :=
  fix go l := match l with [] => Forall_nil P | x :: l' => Forall_cons x (f x) (go l') end.

Lemma Forall_snd {A B} (P : B -> Prop) (l : list (A * B)) : Forall (fun kx => P (snd kx)) l -> Forall P (map snd l).
Proof. induction 1; constructor; assumption. Qed.

Lemma combine_fst_snd {A B} (ks : list A) (xs : list B) :
  length xs = length ks -> map fst (combine ks xs) = ks /\ map snd (combine ks xs) = xs.
Proof.
  revert xs. induction ks as [|k ks IH]; intros [|x xs] L; cbn in *; try discriminate; auto.
  injection L as L. destruct (IH xs L) as [E1 E2]. rewrite E1, E2. auto.
Qed.

Lemma combine_map_fst_snd {A B} (l : list (A * B)) : combine (map fst l) (map snd l) = l.
Proof. induction l as [|[k v] l IH]; [reflexivity|]. cbn. rewrite IH. reflexivity. Qed.

Lemma fold_app_map {A B} (f : A -> B) (l : list A) : forall acc,
  fold_left (fun ps p => (ps ++ [f p])%list) l acc = (acc ++ map f l)%list.
Proof.
  induction l as [|x l IH]; intros acc; cbn.
  - rewrite app_nil_r; reflexivity.
  - rewrite IH, <- app_assoc; reflexivity.
Qed.

Lemma fold_left_map {A B C} (f : C -> B -> C) (g : A -> B) (l : list A) : forall acc,
  fold_left (fun a x => f a (g x)) l acc = fold_left f (map g l) acc.
Proof. induction l; intros; cbn; auto. Qed.

Lemma filter_all {A} (f : A -> bool) (l : list A) : (forall x, f x = true) -> filter f l = l.
Proof. intros H; induction l as [|x l IH]; cbn [filter]; [reflexivity|]. rewrite H, IH; reflexivity. Qed.
Lemma filter_none {A} (f : A -> bool) (l : list A) : (forall x, f x = false) -> filter f l = [].
Proof. intros H; induction l as [|x l IH]; cbn [filter]; [reflexivity|]. rewrite H, IH; reflexivity. Qed.

Lemma option_map_some {A B} (f : A -> B) o y : option_map f o = Some y -> exists a, o = Some a /\ y = f a.
Proof. destruct o as [a|]; [|discriminate]. intros E. inversion E. eauto. Qed.
Lemma option_map2_some {A B C} (f : A -> B -> C) o1 o2 y :
  match o1, o2 with Some a, Some b => Some (f a b) | _, _ => None end = Some y ->
  exists a b, o1 = Some a /\ o2 = Some b /\ y = f a b.
Proof. destruct o1 as [a|], o2 as [b|]; try discriminate. intros E. inversion E. eauto. Qed.

Section DecidesEq.
  Context {A : Type} (eqb : A -> A -> bool).
  Hypothesis eqb_eq : forall a b, eqb a b = true <-> a = b.

  Lemma eqb_eq_refl a : eqb a a = true.
  Proof. apply eqb_eq. reflexivity. Qed.

  Lemma eqb_eq_reflect a b : reflect (a = b) (eqb a b).
  Proof. apply iff_reflect. symmetry. apply eqb_eq. Qed.

  Lemma eqb_eq_sym a b : eqb a b = eqb b a.
  Proof.
    destruct (eqb_eq_reflect a b) as [->|N]; [symmetry; apply eqb_eq_refl|].
    destruct (eqb_eq_reflect b a) as [E|_]; [contradiction N; symmetry; exact E | reflexivity].
  Qed.

  Lemma existsb_eqb_In x l : existsb (eqb x) l = true <-> In x l.
  Proof.
    rewrite existsb_exists. split.
    - intros [y [Hy E]]. apply eqb_eq in E. subst y. exact Hy.
    - intros H. exists x. split; [exact H | apply eqb_eq_refl].
  Qed.

  Lemma existsb_eqb_notin x l : existsb (eqb x) l = false <-> ~ In x l.
  Proof. rewrite <- existsb_eqb_In. destruct (existsb (eqb x) l); split; congruence. Qed.
End DecidesEq.

Lemma str_eqb_refl s : str_eqb s s = true.
Proof. induction s as [|c s IH]; cbn; [reflexivity|]. rewrite N.eqb_refl; assumption. Qed.

Lemma str_eqb_eq a : forall b, str_eqb a b = true <-> a = b.
Proof.
  intros b. split; [|intros <-; apply str_eqb_refl].
  revert b. induction a as [|x a IH]; intros [|y b] H; try discriminate H; [reflexivity|].
  apply andb_prop in H as [H1 H2]. apply N.eqb_eq in H1. rewrite H1, (IH b H2). reflexivity.
Qed.

Lemma str_eqb_spec a b : reflect (a = b) (str_eqb a b).
Proof. exact (eqb_eq_reflect str_eqb str_eqb_eq a b). Qed.

Lemma str_eqb_sym a b : str_eqb a b = str_eqb b a.
Proof. exact (eqb_eq_sym str_eqb str_eqb_eq a b). Qed.

Lemma strs_eqb_eq a : forall b, strs_eqb a b = true <-> a = b.
Proof.
  intros b. split.
  - revert b. induction a as [|x a IH]; intros [|y b] H; try discriminate H; [reflexivity|].
    apply andb_prop in H as [H1 H2]. apply str_eqb_eq in H1. rewrite H1, (IH b H2). reflexivity.
  - intros <-. induction a as [|x a IH]; [reflexivity|]. cbn [strs_eqb]. rewrite str_eqb_refl. exact IH.
Qed.

Lemma name_eqb_eq a b : name_eqb a b = true <-> a = b.
Proof. apply strs_eqb_eq. Qed.

Lemma name_eqb_refl a : name_eqb a a = true.
Proof. exact (eqb_eq_refl name_eqb name_eqb_eq a). Qed.

Lemma name_eqb_sym a b : name_eqb a b = name_eqb b a.
Proof. exact (eqb_eq_sym name_eqb name_eqb_eq a b). Qed.

Lemma uid_eqb_eq a b : uid_eqb a b = true <-> a = b.
Proof.
  unfold uid_eqb; destruct a as [t i], b as [t' i']; cbn. rewrite Bool.andb_true_iff, name_eqb_eq, str_eqb_eq.
  split; [intros [-> ->]; reflexivity | intros [= -> ->]; auto].
Qed.

Lemma uid_eqb_refl a : uid_eqb a a = true.
Proof. exact (eqb_eq_refl uid_eqb uid_eqb_eq a). Qed.

Lemma str_ltb_irrefl a : str_ltb a a = false.
Proof. induction a as [|x a IH]; [reflexivity|]. cbn. rewrite N.ltb_irrefl, N.eqb_refl. exact IH. Qed.

Lemma str_ltb_trans a : forall b c, str_ltb a b = true -> str_ltb b c = true -> str_ltb a c = true.
Proof.
  induction a as [|x a IH]; intros [|y b] [|z c] H1 H2; try discriminate; try reflexivity.
  cbn [str_ltb] in *.
  destruct (N.ltb_spec x y) as [Lxy|_]; [|destruct (N.eqb_spec x y) as [->|_]; [|discriminate]].
  - assert (x < z)%N as L; [|apply N.ltb_lt in L; rewrite L; reflexivity].
    destruct (N.ltb_spec y z) as [Lyz|_]; [exact (N.lt_trans _ _ _ Lxy Lyz)|].
    destruct (N.eqb_spec y z) as [<-|_]; [exact Lxy | discriminate].
  - destruct (N.ltb y z); [reflexivity|]. destruct (N.eqb y z); [|discriminate]. exact (IH _ _ H1 H2).
Qed.

Lemma str_ltb_asym a b : str_ltb a b = true -> str_ltb b a = false.
Proof.
  intros H. destruct (str_ltb b a) eqn:E; [|reflexivity].
  rewrite <- (str_ltb_irrefl a). symmetry. exact (str_ltb_trans a b a H E).
Qed.

Lemma str_ltb_neq a b : str_ltb a b = true -> str_eqb a b = false.
Proof. intros H. destruct (str_eqb_spec a b) as [->|_]; [|reflexivity]. rewrite str_ltb_irrefl in H. discriminate. Qed.

Lemma str_ltb_total a : forall b, str_ltb a b = false -> str_eqb a b = false -> str_ltb b a = true.
Proof.
  induction a as [|x a IH]; intros [|y b]; cbn; intros H1 H2; try discriminate; try reflexivity.
  destruct (N.ltb_spec x y) as [_|Lyx]; [discriminate|].
  destruct (N.eqb_spec x y) as [->|Nxy].
  - rewrite N.ltb_irrefl, N.eqb_refl. exact (IH b H1 H2).
  - apply N.le_lteq in Lyx as [Lyx|E]; [|contradiction Nxy; symmetry; exact E].
    apply N.ltb_lt in Lyx. rewrite Lyx. reflexivity.
Qed.

Section Assoc.
  Context {V : Type}.
  Implicit Types (k : str) (v : V) (l : list (str * V)).

  Lemma has_key_lookup k l : has_key k l = true <-> exists v, lookup k l = Some v.
  Proof.
    unfold has_key. destruct (lookup k l) as [v|]; split; try discriminate.
    - intros _. exists v. reflexivity.
    - reflexivity.
    - intros [v E]. discriminate E.
  Qed.

  Lemma has_key_false_lookup k l : has_key k l = false <-> lookup k l = None.
  Proof. unfold has_key. destruct (lookup k l); split; intros; try discriminate; reflexivity. Qed.

  Lemma lookup_In k l v : lookup k l = Some v -> In (k, v) l.
  Proof.
    induction l as [|[k' v'] l IH]; cbn [lookup]; [discriminate|].
    destruct (str_eqb_spec k k') as [<-|_].
    - intros [= ->]. left; reflexivity.
    - intros H; right; auto.
  Qed.

  Lemma has_key_existsb k l : has_key k l = existsb (str_eqb k) (map fst l).
  Proof.
    unfold has_key. induction l as [|[k' v] l IH]; [reflexivity|]. cbn [lookup map fst existsb].
    destruct (str_eqb k k'); [reflexivity | exact IH].
  Qed.

  Lemma has_key_In k l : has_key k l = true <-> In k (map fst l).
  Proof. rewrite has_key_existsb. exact (existsb_eqb_In str_eqb str_eqb_eq k (map fst l)). Qed.

  Lemma In_has_key k v l : In (k, v) l -> has_key k l = true.
  Proof. intros H. apply has_key_In. exact (in_map fst l (k, v) H). Qed.

  Lemma nodup_In_lookup k v l : keys_nodup l = true -> In (k, v) l -> lookup k l = Some v.
  Proof.
    induction l as [|[k' v'] l IH]; cbn [In keys_nodup lookup]; [intros _ []|].
    intros Hn [[= -> ->]|H]; [rewrite str_eqb_refl; reflexivity|].
    apply andb_prop in Hn as [Hk Hn]. destruct (str_eqb_spec k k') as [<-|_]; [|auto].
    rewrite (In_has_key _ _ _ H) in Hk. discriminate.
  Qed.

  Lemma has_key_cons k k' v l : has_key k l = true -> has_key k ((k', v) :: l) = true.
  Proof. unfold has_key. cbn [lookup]. destruct (str_eqb k k'); [reflexivity|]. intros H. exact H. Qed.

  Lemma lookup_cons_ne k k' v l : k <> k' -> lookup k ((k', v) :: l) = lookup k l.
  Proof. intros N. cbn [lookup]. destruct (str_eqb_spec k k'); [contradiction | reflexivity]. Qed.

  Lemma lookup_None_notin k l : lookup k l = None -> ~ In k (map fst l).
  Proof. intros H. rewrite <- has_key_In, (proj2 (has_key_false_lookup k l) H). discriminate. Qed.

  Lemma keys_nodup_NoDup l : keys_nodup l = true -> NoDup (map fst l).
  Proof.
    induction l as [|[k v] l IH]; cbn [keys_nodup map fst]; [constructor|].
    intros H. apply andb_prop in H as [Hk Hl]. constructor; [|exact (IH Hl)].
    apply lookup_None_notin, has_key_false_lookup, negb_true_iff, Hk.
  Qed.

  Lemma lookup_below k l : (forall kv, In kv l -> str_ltb k (fst kv) = true) -> lookup k l = None.
  Proof.
    induction l as [|[k' v'] l IH]; intros H; [reflexivity|]. cbn [lookup].
    rewrite (str_ltb_neq k k' (H (k', v') (or_introl eq_refl))). apply IH. intros kv Hin. apply H. right. exact Hin.
  Qed.
End Assoc.

Lemma lookup_map_snd {V W} (f : V -> W) k (l : list (str * V)) :
  lookup k (map (fun kv => (fst kv, f (snd kv))) l) = option_map f (lookup k l).
Proof.
  induction l as [|[k' v] l IH]; [reflexivity|].
  cbn [map fst snd lookup]. destruct (str_eqb k k'); [reflexivity | exact IH].
Qed.

Lemma has_key_keys {V W} k (l1 : list (str * V)) (l2 : list (str * W)) :
  map fst l1 = map fst l2 -> has_key k l1 = has_key k l2.
Proof. intros H. rewrite !has_key_existsb, H. reflexivity. Qed.

Lemma keys_nodup_keys {V W} (l1 : list (str * V)) : forall (l2 : list (str * W)),
  map fst l1 = map fst l2 -> keys_nodup l1 = keys_nodup l2.
Proof.
  induction l1 as [|[k v1] l1 IH]; intros [|[k2 v2] l2] H; try discriminate H; [reflexivity|].
  injection H as <- H. cbn [keys_nodup]. rewrite (has_key_keys k l1 l2 H), (IH l2 H). reflexivity.
Qed.

Lemma mapM_map_ok {A B} (f : B -> res A) (g : A -> B) l :
  Forall (fun x => f (g x) = Ok x) l -> mapM f (map g l) = Ok l.
Proof. induction 1 as [|x l Hx _ IH]; [reflexivity|]. cbn [map mapM]. rewrite Hx, IH. reflexivity. Qed.

Lemma mapM_map {A B C} (f : B -> res C) (g : A -> B) l : mapM f (map g l) = mapM (fun x => f (g x)) l.
Proof. induction l as [|x l IH]; [reflexivity|]. cbn [map mapM]. rewrite IH. reflexivity. Qed.

Lemma mapM_lookup {A B} (f : A -> res B) (m : list (str * A)) a : forall vs,
  mapM f (map snd m) = Ok vs ->
  match lookup a m with
  | None => lookup a (combine (map fst m) vs) = None
  | Some y => exists v, lookup a (combine (map fst m) vs) = Some v /\ f y = Ok v
  end.
Proof.
  induction m as [|[k x] m IH]; intros vs E; [reflexivity|].
  cbn [map mapM snd] in E. destruct (f x) as [v|] eqn:Ex; [|discriminate].
  destruct (mapM f (map snd m)) as [vs'|]; [|discriminate]. injection E as <-.
  cbn [lookup map fst combine]. destruct (str_eqb a k); [exists v; auto | exact (IH vs' eq_refl)].
Qed.

Lemma in_i64_bounds z : in_i64 z = true <-> -9223372036854775808 <= z <= 9223372036854775807.
Proof.
  unfold in_i64. split.
  - intros H. apply andb_prop in H as [H1 H2]. split; apply Z.leb_le; assumption.
  - intros [H1 H2]. apply andb_true_intro. split; apply Z.leb_le; assumption.
Qed.

Lemma bool_lits_or_default {T} (f : bool -> bool -> T) (d : T) a b :
  (exists x y, a = Lit (PBool x) /\ b = Lit (PBool y)) \/
  match a, b with Lit (PBool x), Lit (PBool y) => f x y | _, _ => d end = d.
Proof.
  destruct a as [[x| | |]| | | | | | | | | | | | | | |]; try (right; reflexivity).
  destruct b as [[y| | |]| | | | | | | | | | | | | | |]; try (right; reflexivity).
  left. exists x, y. split; reflexivity.
Qed.

Lemma mk_and_cases a b : (exists x y, a = Lit (PBool x) /\ b = Lit (PBool y)) \/ mk_and a b = And a b.
Proof. apply bool_lits_or_default. Qed.

Lemma mk_or_cases a b : (exists x y, a = Lit (PBool x) /\ b = Lit (PBool y)) \/ mk_or a b = Or a b.
Proof. apply bool_lits_or_default. Qed.
