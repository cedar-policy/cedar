(* TypecheckAttr.v — C03 soundness of attribute access (`has`, `.`) on access paths over records and
   entities, with capabilities. *)
From Cedar Require Import Typecheck EvalProofs BaseFacts ConformProofs ExprEq TypecheckRules TypecheckProofs.

Lemma decl_entity_single k : decl_ty_ok (TEntity k) = true -> exists n, k = ELub [n].
Proof.
  unfold decl_ty_ok. destruct k as [|[|n [|n' l]]]; cbn; try discriminate. eauto.
Qed.

(* a value of a declared entity or record type: an entity of that very type, or a record *)
Lemma er_value v tx :
  TypeConforms v tx -> decl_ty_ok tx = true ->
  existsb (subty Permissive tx) [ty_any_entity; ty_any_record] = true ->
  (exists u, v = VEntity u /\ tx = TEntity (ELub [uty u])) \/
  (exists kvs attrs o, v = VRecord kvs /\ tx = TRecord attrs o).
Proof.
  intros Hv Hd Hs. destruct tx as [| | | | |k|attrs o|]; try (cbn in Hs; discriminate Hs).
  - exfalso. eapply conf_never; eauto.
  - left. destruct (decl_entity_single _ Hd) as [n ->]. destruct (entity_value _ _ Hv) as (u & -> & [->|[]]). eauto.
  - right. destruct (record_value _ _ _ Hv) as [kvs ->]. eauto 6.
Qed.

Lemma required_in i a t : lookup a (et_attrs i) = Some (t, true) -> In a (required_attrs i).
Proof.
  intros Hl. unfold required_attrs. apply in_map_iff. exists (a, (t, true)). split; [reflexivity|].
  apply filter_In. split; [apply lookup_In; exact Hl|reflexivity].
Qed.

Section Sound.
  Variable m : vmode.
  Variable sch : schema.
  Variable env : reqenv.
  Variable q : request.
  Variable es : entities.
  Hypothesis Hwf : schema_wf sch = true.
  Hypothesis Hact : forall t, is_action_type t = true -> find_etype sch t = None.
  Hypothesis Hctx : decl_ty_ok (re_context env) = true.
  Hypothesis Hstore : store_ok sch es.

  (* what the store hypothesis says about the attributes of an entity that is present *)
  Lemma ent_attrs u d :
    find_entity u es = Some d ->
    (eattrs d = [] /\ etype_attrs sch (uty u) = [] /\ is_action_type (uty u) = true) \/
    (exists i, find_etype sch (uty u) = Some i /\ etype_attrs sch (uty u) = et_attrs i /\ is_action_type (uty u) = false /\
       (forall k, In k (required_attrs i) -> has_key k (eattrs d) = true) /\
       (forall k v, In (k, v) (eattrs d) ->
          match lookup k (et_attrs i) with Some (t, _) => TypeConforms v t | None => et_open i = true end)).
  Proof.
    intros Hf. pose proof (Hstore _ _ Hf) as Hc. unfold EntityConforms in Hc. cbn [fst snd] in Hc.
    destruct (is_action_type (uty u)) eqn:Ea.
    - left. destruct Hc as (_ & Hat & _). split; [exact Hat|]. split; [|reflexivity].
      unfold etype_attrs. rewrite (Hact _ Ea). reflexivity.
    - right. destruct Hc as (i & Hi & _ & Hreq & Hattrs & _). exists i.
      split; [exact Hi|]. split; [unfold etype_attrs; rewrite Hi; reflexivity|]. split; [reflexivity|].
      split; [exact Hreq|]. intros k v Hin. specialize (Hattrs _ _ Hin).
      destruct (lookup k (et_attrs i)) as [[t r]|]; [exact (proj1 Hattrs)|exact (proj1 Hattrs)].
  Qed.

  (* `has`: total on entities and records; forced true / false where the type says so *)
  Lemma has_facts v tx a :
    TypeConforms v tx -> decl_ty_ok tx = true ->
    existsb (subty Permissive tx) [ty_any_entity; ty_any_record] = true ->
    exists b, has_attr es v a = Ok (VBool b) /\
      (forall t, lookup_attr_ty sch tx a = Some (t, true) -> (exists at_ o, tx = TRecord at_ o) -> b = true) /\
      (lookup_attr_ty sch tx a = None -> may_have_attr sch tx a = false -> b = false).
  Proof.
    intros Hv Hd Hs. destruct (er_value _ _ Hv Hd Hs) as [(u & -> & ->)|(kvs & attrs & o & -> & ->)].
    - cbn [has_attr VEntity]. destruct (find_entity u es) as [d|] eqn:Hf.
      + exists (has_key a (eattrs d)). split; [reflexivity|].
        split; [intros t _ (at_ & o & Habs); discriminate Habs|].
        cbn [lookup_attr_ty lub_attrs fold_left]. intros Hl Hm.
        destruct (ent_attrs _ _ Hf) as [(Hnil & _ & _)|(i & Hi & Hea & Hna & _ & Hattrs)].
        * rewrite Hnil. reflexivity.
        * rewrite Hea in Hl. destruct (has_key a (eattrs d)) eqn:Hk; [|reflexivity]. exfalso.
          apply has_key_lookup in Hk. destruct Hk as [x Hx]. apply lookup_In in Hx.
          specialize (Hattrs _ _ Hx). rewrite Hl in Hattrs.
          unfold may_have_attr, has_open_attrs in Hm. cbn [existsb] in Hm.
          rewrite Hna, Hi, Hattrs in Hm. discriminate Hm.
      + exists false. split; [reflexivity|]. split; [intros t _ (at_ & o & Habs); discriminate Habs|]. reflexivity.
    - apply TypeConforms_record in Hv as (R1 & R2 & R3).
      exists (has_key a kvs). split; [reflexivity|]. cbn [lookup_attr_ty may_have_attr]. split.
      + intros t Hl _. apply (R1 _ _ (lookup_In _ _ _ Hl)).
      + intros Hl Hm. apply orb_false_elim in Hm. destruct Hm as [-> Hk].
        destruct (has_key a kvs) eqn:Hkk; [|reflexivity]. exfalso.
        apply has_key_lookup in Hkk. destruct Hkk as [x Hx]. apply lookup_In in Hx.
        rewrite (R3 eq_refl _ _ Hx) in Hk. discriminate Hk.
  Qed.

  (* `.`: present attributes have their declared type; required ones are present unless the entity is missing *)
  Lemma get_facts v tx a t req :
    TypeConforms v tx -> decl_ty_ok tx = true ->
    existsb (subty Permissive tx) [ty_any_entity; ty_any_record] = true ->
    lookup_attr_ty sch tx a = Some (t, req) ->
    (has_attr es v a = Ok (VBool true) -> exists x, get_attr es v a = Ok x /\ TypeConforms x t) /\
    (req = true -> get_attr es v a = Err ErrEntityMissing \/ has_attr es v a = Ok (VBool true)).
  Proof.
    intros Hv Hd Hs Hl. destruct (er_value _ _ Hv Hd Hs) as [(u & -> & ->)|(kvs & attrs & o & -> & ->)].
    - cbn [lookup_attr_ty lub_attrs fold_left] in Hl.
      cbn [has_attr get_attr VEntity]. destruct (find_entity u es) as [d|] eqn:Hf.
      + destruct (ent_attrs _ _ Hf) as [(_ & Hnil & _)|(i & Hi & Hea & Hna & Hreq & Hattrs)].
        * rewrite Hnil in Hl. discriminate Hl.
        * rewrite Hea in Hl. split.
          -- intros Hh. inversion Hh as [Hk]. apply has_key_lookup in Hk. destruct Hk as [x Hx].
             exists x. rewrite Hx. split; [reflexivity|].
             pose proof (Hattrs _ _ (lookup_In _ _ _ Hx)) as Hc. rewrite Hl in Hc. exact Hc.
          -- intros ->. right. rewrite (Hreq _ (required_in _ _ _ Hl)). reflexivity.
      + split; [intros Hh; discriminate Hh|]. intros _. left. reflexivity.
    - apply TypeConforms_record in Hv as (R1 & R2 & R3).
      cbn [lookup_attr_ty] in Hl. cbn [has_attr get_attr]. split.
      + intros Hh. inversion Hh as [Hk]. apply has_key_lookup in Hk. destruct Hk as [x Hx].
        exists x. rewrite Hx. split; [reflexivity|]. exact (R2 _ _ (lookup_In _ _ _ Hx) _ _ Hl).
      + intros ->. right. rewrite (R1 _ _ (lookup_In _ _ _ Hl)). reflexivity.
  Qed.

  Lemma attr_decl tx a t req : decl_ty_ok tx = true -> lookup_attr_ty sch tx a = Some (t, req) -> decl_ty_ok t = true.
  Proof.
    destruct tx; cbn [lookup_attr_ty]; try discriminate; intros Hd Hl.
    - destruct (decl_entity_single _ Hd) as [n ->]. cbn [lub_attrs fold_left] in Hl.
      unfold etype_attrs in Hl. destruct (find_etype sch n) as [i|] eqn:Hi; [|discriminate Hl].
      eapply wf_attr_ty; [eapply wf_find_etype; eauto | exact Hl].
    - destruct (decl_ty_ok_record _ _ Hd) as [_ Hall]. exact (Hall _ (lookup_In _ _ _ Hl)).
  Qed.

  (* the type of an access path is a declared type: single-type entity references, closed-form records *)
  Lemma path_type x : is_path x = true -> forall cs tx cx, tc m sch env cs x = Some (tx, cx) -> decl_ty_ok tx = true.
  Proof.
    induction x; cbn [is_path]; intros Hp; try discriminate Hp; intros cs tx cx Htc.
    - rewrite tc_var in Htc. destruct (ty_of_var sch env v) eqn:E; [|discriminate]. inversion Htc; subst.
      destruct v; cbn [ty_of_var] in E.
      + inversion E; subst; reflexivity.
      + apply euid_literal_ty_inv in E. subst. reflexivity.
      + inversion E; subst; reflexivity.
      + inversion E; subst. exact Hctx.
    - rewrite tc_getattr in Htc. get_expect Htc ty0 c0 Ex Hs0.
      destruct (lookup_attr_ty sch ty0 a) as [[t req]|] eqn:El; [|discriminate].
      destruct (req || _); [|discriminate]. inversion Htc; subst.
      eapply attr_decl; [eapply IHx; eauto | exact El].
  Qed.

  (* `has` exports the capability: it holds where the result is true, and from the start where the type is True *)
  Lemma has_result x a tx cx (forced : bool) :
    sound_result q es x tx cx ->
    (forced = true -> cap_holds q es (cap_attr x a)) ->
    (forall v, TypeConforms v tx -> exists b, has_attr es v a = Ok (VBool b)) ->
    sound_result q es (HasAttr x a) (if forced then TBool BTrue else TBool BAny) [cap_attr x a].
  Proof.
    intros [_ Dx] Hforce Hval. split.
    - destruct forced; [|intros [E|E]; discriminate E]. intros _ c0 [<-|[]]. apply Hforce. reflexivity.
    - unfold dyn_result. rewrite eval_hasattr.
      destruct Dx as [(c & He & Hc)|(v & He & Hv & _)]; rewrite He; [left; exists c; auto|].
      destruct (Hval _ Hv) as (b & Hb). right. exists (VBool b). cbn [bind].
      split; [exact Hb|]. split.
      + destruct forced; [|apply TC_bool].
        pose proof (Hforce eq_refl v He) as Ht. rewrite Hb in Ht. inversion Ht. constructor.
      + intros Hv'. apply vbool_inj in Hv'. subst b. intros c0 [<-|[]]. intros v0 He0.
        rewrite He in He0. inversion He0; subst v0. exact Hb.
  Qed.

  Lemma sound_hasattr x a : is_path x = true -> IHfor m sch env q es x -> IHfor m sch env q es (HasAttr x a).
  Proof.
    intros Hp IHx cs t cs' Hcs Htc. rewrite tc_hasattr in Htc. cbv zeta in Htc.
    get_expect Htc tx cx Ex Hsx.
    pose proof (path_type _ Hp _ _ _ Ex) as Hd. pose proof (IHx _ _ _ Hcs Ex) as Sx.
    pose proof (fun v Hv => has_facts v tx a Hv Hd Hsx) as Hval.
    destruct (lookup_attr_ty sch tx a) as [[t0 req]|] eqn:El.
    - assert (Hcapmem : caps_mem (cap_attr x a) cs = true -> cap_holds q es (cap_attr x a)).
      { intros Hm. apply Hcs. apply caps_mem_In. exact Hm. }
      destruct req; inversion Htc; subst.
      all: apply (has_result x a tx cx); auto.
      all: try (intros v Hv; destruct (Hval v Hv) as (b & Hb & _); eauto).
      (* a required attribute of a record is there *)
      intros Hf. apply orb_prop in Hf. destruct Hf as [Hr|Hm]; [|auto].
      intros v Hev. destruct Sx as [_ [(c & He & _)|(v' & He & Hv & _)]]; rewrite Hev in He; inversion He; subst v'.
      destruct (Hval v Hv) as (b & Hb & H2 & _).
      rewrite Hb. rewrite (H2 _ eq_refl); [reflexivity|].
      destruct tx; try discriminate Hr. eauto.
    - inversion Htc; subst.
      apply (sound_unary_op q es _ x (fun v => has_attr es v a) tx cx); [reflexivity|exact Sx|].
      intros v _ Hv. destruct (Hval v Hv) as (b & Hb & _ & H3). right. exists (VBool b). split; [exact Hb|].
      destruct (may_have_attr sch tx a); [apply TC_bool|].
      rewrite (H3 eq_refl eq_refl). constructor.
  Qed.

  Lemma sound_getattr x a : is_path x = true -> IHfor m sch env q es x -> IHfor m sch env q es (GetAttr x a).
  Proof.
    intros Hp IHx cs t cs' Hcs Htc. rewrite tc_getattr in Htc.
    get_expect Htc tx cx Ex Hsx.
    pose proof (path_type _ Hp _ _ _ Ex) as Hd.
    destruct (lookup_attr_ty sch tx a) as [[t0 req]|] eqn:El; [|discriminate].
    destruct (req || caps_mem (cap_attr x a) cs) eqn:Eg; [|discriminate]. inversion Htc; subst. clear Htc.
    apply (sound_unary_op q es _ x (fun v => get_attr es v a) tx cx); [reflexivity|exact (IHx _ _ _ Hcs Ex)|].
    intros v He Hv. destruct (get_facts v tx a t req Hv Hd Hsx El) as [G1 G2].
    (* the attribute is there: it is required, or a capability says so *)
    assert (Hor : get_attr es v a = Err ErrEntityMissing \/ has_attr es v a = Ok (VBool true)).
    { apply orb_prop in Eg. destruct Eg as [->|Hm]; [apply G2; reflexivity|]. right.
      apply (Hcs _ (caps_mem_In _ _ Hm)). exact He. }
    destruct Hor as [Herr|Hh].
    - left. exists ErrEntityMissing. split; [exact Herr|left; reflexivity].
    - right. exact (G1 Hh).
  Qed.
End Sound.
