(* The second phase of reauthorize is peval with the mapper sg on the completed request and store: sound like
   any partial evaluation (`peval_sound` with mu = sg), and with nothing left unknown, so without residual
   (`peval_concrete`). *)
From Cedar Require Import PE EvalProofs ExprInd BaseFacts PESound.

Definition is_concrete (p : pres) : Prop := match p with PV _ | PErr _ => True | _ => False end.

Lemma concrete_of_res r : is_concrete (of_res r).
Proof. destruct r; exact I. Qed.

Section Concrete.
  Variable mu : mapper.
  Variable sl : slotenv.
  Variable q : request.
  Variable es : entities.
  Notation pe := (peval mu sl (embed_request q) (embed_entities es)).
  Notation wt := (wt_expr mu).

  Lemma find_embed u :
    find_pentity u (embed_entities es) =
    option_map (fun d => mkPEdata (map (fun kv => (fst kv, PVal (snd kv))) (eattrs d)) (etags d) (eancestors d))
               (find_entity u es).
  Proof.
    unfold embed_entities. induction es as [|[u' d] l IH]; [reflexivity|].
    cbn [map find_entity find_pentity fst snd]. destruct (uid_eqb u u'); [reflexivity | exact IH].
  Qed.

  Lemma finish_concrete f items mkv mke :
    Forall (fun x => is_concrete (f x)) items -> (forall vs, is_concrete (mkv vs)) ->
    is_concrete (finish (pmapM f items) mkv mke).
  Proof.
    intros H Hv.
    assert (C : match pmapM f items with
                | PLOk l => exists vs, all_vals l = Some vs
                | PLErr _ => True
                | PLOut => False
                end).
    { induction H as [|x l Hx Hl IH]; [cbn; eauto|]. cbn [pmapM].
      destruct (f x); cbn in Hx; try contradiction; [|exact I].
      destruct (pmapM f l); auto. destruct IH as [vs E]. cbn [all_vals]. rewrite E. eauto. }
    unfold finish. destruct (pmapM f items); [|exact I|contradiction]. destruct C as [vs E]. rewrite E. apply Hv.
  Qed.

  Lemma concrete_strict pa (kv : value -> pres) (kr : expr -> pres) :
    is_concrete pa -> (forall v, is_concrete (kv v)) ->
    is_concrete (match pa with PV v => kv v | PR r => kr r | PErr e => PErr e | POut => POut end).
  Proof. destruct pa; cbn; auto; contradiction. Qed.

  Theorem peval_concrete e : wt e = true -> is_concrete (pe e).
  Proof.
    induction e using expr_ind'; intros W; cbn [peval].
    - exact I.
    - destruct v; exact I.
    - destruct (slot_lookup s sl); exact I.
    - cbn [wt_expr] in W. unfold unknown_to_pv. destruct (mu n) as [v|]; [|discriminate].
      destruct ty as [t|]; [destruct (rtype_eqb (type_of v) t)|]; exact I.
    - cbn [wt_expr] in W. apply andb_prop in W. destruct W as [W W3]. apply andb_prop in W. destruct W as [W1 W2].
      apply concrete_strict; [auto|]. intros v. destruct (as_bool v) as [[|]|]; auto; exact I.
    - cbn [wt_expr] in W. apply andb_prop in W. destruct W as [W1 W2].
      apply concrete_strict; [auto|]. intros v. destruct (as_bool v) as [[|]|]; try exact I.
      apply concrete_strict; [auto|]. intros v'. destruct (as_bool v'); exact I.
    - cbn [wt_expr] in W. apply andb_prop in W. destruct W as [W1 W2].
      apply concrete_strict; [auto|]. intros v. destruct (as_bool v) as [[|]|]; try exact I.
      apply concrete_strict; [auto|]. intros v'. destruct (as_bool v'); exact I.
    - apply concrete_strict; [auto|]. intros v. apply concrete_of_res.
    - cbn [wt_expr] in W. apply andb_prop in W. destruct W as [W1 W2].
      apply concrete_strict; [auto|]. intros v1. apply concrete_strict; [auto|]. intros v2. apply concrete_of_res.
    - apply finish_concrete; [|intros; apply concrete_of_res].
      rewrite wt_ext in W. apply (Forall_forallb_mp (w := wt)); assumption.
    - apply concrete_strict; [auto|]. intros v. destruct v as [[| | |u]|l|l|]; try exact I.
      + rewrite find_embed. destruct (find_entity u es) as [d|]; [|exact I]. cbn [option_map pattrs].
        rewrite (lookup_map_snd PVal). destruct (lookup k (eattrs d)); exact I.
      + destruct (lookup k l); exact I.
    - apply concrete_strict; [auto|]. intros v. destruct v as [[| | |u]|l|l|]; try exact I.
      rewrite find_embed. destruct (find_entity u es); exact I.
    - apply concrete_strict; [auto|]. intros v. destruct (as_string v); exact I.
    - apply concrete_strict; [auto|]. intros v. destruct (as_entity v); exact I.
    - apply finish_concrete; [|intros; exact I].
      rewrite wt_set in W. apply (Forall_forallb_mp (w := wt)); assumption.
    - rewrite pmapM_rec_map. apply finish_concrete; [|intros; exact I]. rewrite wt_record in W.
      apply (Forall_forallb_mp (w := wt)); [apply Forall_snd; exact H | exact W].
  Qed.
End Concrete.

Section Reauth.
  Variable sg : mapper.
  Variable q : request.
  Variable es : entities.
  Notation ev := (eval [] q es).
  Notation S := (subst sg).

  Lemma embed_var sl v : sound_pres sg sl q es (peval_var (embed_request q) v) (Var v).
  Proof. destruct v; reflexivity. Qed.

  Lemma embed_store sl : store_complete sg sl (embed_entities es) q es.
  Proof.
    intros u. rewrite find_embed. destruct (find_entity u es) as [d|]; cbn [option_map]; [|reflexivity].
    exists d. split; [reflexivity|]. split; [reflexivity|]. split; [reflexivity|].
    intros k. cbn [pattrs]. rewrite (lookup_map_snd PVal). destruct (lookup k (eattrs d)); reflexivity.
  Qed.

  Lemma wrap_eval x : ev (S (mk_and T x)) = as_boolean (ev (S x)).
  Proof. rewrite (subst_mk_and sg [] q es). reflexivity. Qed.

  Lemma wrap_wt x : wt_expr sg (mk_and T x) = wt_expr sg x.
  Proof. rewrite wt_mk_and. reflexivity. Qed.

  (* the body of the `map` in PE.reauthorize, read off its text; no lemma relates the two (C13, _partial (a)) *)
  Definition reauth_status (st : pstatus) : pstatus :=
    match residual_condition st with
    | Some c => status_of_pres (peval sg [] (embed_request q) (embed_entities es) c)
    | None => SOut
    end.

  Lemma reauth_sat : reauth_status SSat = SSat. Proof. reflexivity. Qed.
  Lemma reauth_false : reauth_status SFalse = SFalse. Proof. reflexivity. Qed.
  Lemma reauth_err e : reauth_status (SErr e) = SFalse. Proof. reflexivity. Qed.

  Lemma as_bool_as_boolean (c : res value) : (do v <- as_boolean c; as_bool v) = (do v <- c; as_bool v).
  Proof. destruct c as [[[ | | | ]| | | ]|]; reflexivity. Qed.

  Lemma concrete_sound_agree p a b : is_concrete p -> sound_res sg [] q es p a -> agree a b -> sound_res sg [] q es p b.
  Proof.
    destruct p as [v| |e|]; cbn; try contradiction; intros _ H A.
    - rewrite H in A. exact (agree_ok_l _ _ A).
    - destruct H as [x H]. rewrite H in A. exact (agree_err_l _ _ A).
  Qed.

  Lemma concrete_status p c :
    is_concrete p -> sound_res sg [] q es p c ->
    match status_of_pres p with
    | SSat => (do v <- c; as_bool v) = Ok true
    | SFalse | SErr _ => (do v <- c; as_bool v) <> Ok true
    | SRes _ | SOut => False
    end.
  Proof.
    destruct p as [v| |e|]; cbn; try contradiction; intros _ H.
    - rewrite H. cbn [bind]. destruct (as_bool v) as [[|]|]; congruence.
    - destruct H as [x H]. rewrite H. cbn. congruence.
  Qed.

  Theorem reauth_sound p c :
    sound_res sg [] q es p c -> status_of_pres p <> SOut ->
    match reauth_status (status_of_pres p) with
    | SSat => (do v <- c; as_bool v) = Ok true
    | SFalse | SErr _ => (do v <- c; as_bool v) <> Ok true
    | SRes _ | SOut => False
    end.
  Proof.
    intros H1 N. destruct p as [v|r|e|]; cbn [sound_res status_of_pres] in *.
    - rewrite H1. cbn [bind].
      destruct (as_bool v) as [[|]|]; rewrite ?reauth_sat, ?reauth_false, ?reauth_err; congruence.
    - destruct H1 as [A Wr]. unfold reauth_status. cbn [residual_condition].
      set (c0 := mk_and T (mk_and T (mk_and T r))).
      assert (Wc : wt_expr sg c0 = true) by (unfold c0; rewrite !wrap_wt; exact Wr).
      assert (Ec : ev (S c0) = as_boolean (ev (S r))) by (unfold c0; rewrite !wrap_eval, !as_boolean_idem; reflexivity).
      pose proof (peval_sound sg sg [] (embed_request q) (embed_entities es) q es (fun n v E => E)
                              (embed_var []) (embed_store []) c0 Wc) as H2.
      pose proof (peval_concrete sg [] q es c0 Wc) as NR.
      unfold sound_pres in H2. rewrite Ec in H2.
      rewrite <- (as_bool_as_boolean c). apply (concrete_status _ _ NR).
      exact (concrete_sound_agree _ _ _ NR H2 (agree_bind _ _ _ A)).
    - destruct H1 as [x H1]. rewrite H1, reauth_err. cbn. congruence.
    - congruence.
  Qed.
End Reauth.
