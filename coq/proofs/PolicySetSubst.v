From Cedar Require Import PolicySet EvalProofs.

Section Subst.
  Variable q : request.
  Variable es : entities.

  Lemma binapp_congr sl sl' o a a' b b' :
    eval sl q es a = eval sl' q es a' -> eval sl q es b = eval sl' q es b' ->
    eval sl q es (BinApp o a b) = eval sl' q es (BinApp o a' b').
  Proof. intros H1 H2. rewrite !eval_binapp, H1, H2. reflexivity. Qed.

  Lemma mk_and_congr sl sl' a a' b b' :
    eval sl q es a = eval sl' q es a' -> eval sl q es b = eval sl' q es b' ->
    eval sl q es (mk_and a b) = eval sl' q es (mk_and a' b').
  Proof. intros H1 H2. rewrite !eval_mk_and, !eval_and, H1, H2. reflexivity. Qed.

  Lemma eval_eref env o v s r :
    eval env q es (BinApp o (Var v) (eref_expr s r)) =
    eval [] q es (BinApp o (Var v) (eref_expr s (subst_ref s env r))).
  Proof.
    apply binapp_congr; [reflexivity|]. destruct r as [u|]; cbn; [reflexivity|].
    destruct (slot_lookup s env); reflexivity.
  Qed.

  Lemma eval_pc env v s c :
    eval env q es (prconstraint_expr v s c) = eval [] q es (prconstraint_expr v s (subst_pc s env c)).
  Proof.
    destruct c as [|r|r|t r|t]; cbn [prconstraint_expr subst_pc]; try reflexivity.
    - apply eval_eref.
    - apply eval_eref.
    - apply mk_and_congr; [reflexivity | apply eval_eref].
  Qed.

  Lemma eval_lits sl us :
    eval sl q es (SetE (map (fun u => Lit (PEntity u)) us)) = eval [] q es (SetE (map (fun u => Lit (PEntity u)) us)).
  Proof.
    rewrite !eval_set. f_equal.
    induction us as [|u us IH]; [reflexivity|]. cbn [map]. rewrite !eval_list_cons, IH. reflexivity.
  Qed.

  Lemma eval_ac sl c : eval sl q es (aconstraint_expr c) = eval [] q es (aconstraint_expr c).
  Proof.
    destruct c as [|us|u]; cbn [aconstraint_expr]; try reflexivity.
    apply binapp_congr; [reflexivity | apply eval_lits].
  Qed.

  (* the when/unless body does not mention slots (the parser rejects them there): stated semantically *)
  Definition body_closed (t : template) : Prop :=
    forall sl e, tbody t = Some e -> eval sl q es e = eval [] q es e.

  Lemma link_subst t env i :
    body_closed t ->
    eval_policy q es (mkPolicy t (Some i) env) = eval_policy q es (static_of (subst_slots env t)).
  Proof.
    intros BC. unfold eval_policy, pcondition, condition.
    cbn [penv ptemplate static_of subst_slots tprincipal taction tresource tbody].
    f_equal. apply mk_and_congr; [apply eval_pc|]. apply mk_and_congr; [apply eval_ac|].
    apply mk_and_congr; [apply eval_pc|]. destruct (tbody t) eqn:E; [apply BC; exact E|reflexivity].
  Qed.
End Subst.
