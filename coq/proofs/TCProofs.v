(* C04: what a store caches as ancestors is reachability in its parent graph.  The closure by saturation
   is the least set closed under parent steps. *)
From Coq Require Import Permutation.
From Cedar Require Import TC BaseFacts.
Open Scope N_scope.

Lemma mem_In x l : mem x l = true <-> In x l.
Proof. exact (existsb_eqb_In N.eqb N.eqb_eq x l). Qed.

Lemma mem_false x l : mem x l = false <-> ~ In x l.
Proof. exact (existsb_eqb_notin N.eqb N.eqb_eq x l). Qed.

Lemma is_desc_In n a : is_desc n a = true <-> In a (ancestors n).
Proof.
  unfold is_desc, ancestors. rewrite orb_true_iff, in_app_iff, !mem_In. tauto.
Qed.

Lemma in_parents_ancestors n p : In p (n_parents n) -> In p (ancestors n).
Proof. intros H. apply in_or_app. left; exact H. Qed.

Lemma add_set_In x y l : In y (add_set x l) <-> y = x \/ In y l.
Proof.
  unfold add_set. destruct (mem x l) eqn:M.
  - apply mem_In in M. split; [auto|]. intros [-> | H]; assumption.
  - rewrite in_app_iff. cbn [In]. split; [intros [H|[H|[]]]; auto | intros [H|H]; auto].
Qed.

Lemma remove_set_In u l y : In y (remove_set u l) <-> In y l /\ y <> u.
Proof.
  unfold remove_set. rewrite filter_In, negb_true_iff, N.eqb_neq.
  split; intros [A B]; (split; [exact A | apply not_eq_sym; exact B]).
Qed.

(* one or more parent steps; `parents_of` is empty for a uid without a record (leaf) *)
Inductive reach (g : graph) (u : uid) : uid -> Prop :=
| reach_parent p : In p (parents_of g u) -> reach g u p
| reach_step b p : reach g u b -> In p (parents_of g b) -> reach g u p.

Lemma reach_first g u a : reach g u a -> exists p, In p (parents_of g u).
Proof. induction 1; eauto. Qed.

Lemma sat_eq fuel g seed S :
  sat fuel g seed S =
  match filter (fun x => negb (mem x S)) (seed ++ succs g S) with
  | [] => Some S
  | x :: _ => match fuel with O => None | Datatypes.S f => sat f g seed (x :: S) end
  end.
Proof. destruct fuel; reflexivity. Qed.

Lemma filter_head_in {A} (f : A -> bool) l x t : filter f l = x :: t -> In x l /\ f x = true.
Proof.
  intros F. assert (H : In x (filter f l)) by (rewrite F; left; reflexivity).
  apply filter_In in H. exact H.
Qed.

Lemma no_new_in S l : filter (fun x => negb (mem x S)) l = [] -> forall x, In x l -> In x S.
Proof.
  intros F x Hx. destruct (mem x S) eqn:M; [apply mem_In; exact M|].
  assert (H : In x (filter (fun x => negb (mem x S)) l)) by (apply filter_In; rewrite M; auto).
  rewrite F in H. destruct H.
Qed.

(* what sat returns is closed under the seed and under successors, and is the least such set above S:
   whatever holds of S and of the seed and is inherited along parent edges holds of the result *)
Lemma sat_least_closed g seed : forall fuel S R, sat fuel g seed S = Some R ->
  (forall x, In x (seed ++ succs g R) -> In x R) /\
  forall P : uid -> Prop,
    (forall x, In x S -> P x) -> (forall x, In x seed -> P x) ->
    (forall b p, P b -> In p (parents_of g b) -> P p) -> forall x, In x R -> P x.
Proof.
  induction fuel as [|fuel IH]; intros S R H; rewrite sat_eq in H;
    destruct (filter _ _) as [|y t] eqn:F.
  - (* nothing new: the result is S *)
    injection H as <-. split; [exact (no_new_in S _ F)|].
    intros P HS _ _. exact HS.
  - discriminate.
  - injection H as <-. split; [exact (no_new_in S _ F)|].
    intros P HS _ _. exact HS.
  - (* y is new: it is in the seed or a parent of a member of S *)
    destruct (IH _ _ H) as [Hc Hl]. split; [exact Hc|].
    intros P HS Hseed Hstep. apply Hl; [|exact Hseed | exact Hstep].
    intros x [<-|Hx]; [|exact (HS x Hx)].
    apply filter_head_in in F as [Hin _]. apply in_app_or in Hin as [Hin|Hin]; [exact (Hseed y Hin)|].
    apply in_flat_map in Hin as [b [Hb Hp]]. exact (Hstep b y (HS b Hb) Hp).
Qed.

Lemma closure_correct g u c : closure g u = Some c -> forall a, In a c <-> reach g u a.
Proof.
  unfold closure. intros H a. apply sat_least_closed in H as [Hc Hl]. split.
  - apply Hl; [intros x [] | exact (reach_parent g u) | exact (reach_step g u)].
  - induction 1 as [p Hp | b p Hb IH Hp]; apply Hc, in_or_app.
    + left; exact Hp.
    + right. apply in_flat_map. exists b. split; assumption.
Qed.

Lemma parents_of_incl g : forall b p, In p (parents_of g b) -> In p (flat_map snd g).
Proof.
  unfold parents_of. induction g as [|[k ps] g IH]; intros b p H; cbn [gfind] in H.
  - destruct H.
  - cbn [flat_map snd]. apply in_or_app. destruct (N.eqb b k).
    + left; exact H.
    + right. eapply IH; exact H.
Qed.

Lemma sat_fuel g seed :
  incl seed (flat_map snd g) ->
  forall fuel S, NoDup S -> incl S (flat_map snd g) ->
    (length (flat_map snd g) < fuel + length S)%nat -> sat fuel g seed S <> None.
Proof.
  intros Hseed. induction fuel as [|fuel IH]; intros S ND HI HL; rewrite sat_eq;
    destruct (filter _ _) as [|y t] eqn:F; try discriminate.
  - exfalso. exact (Nat.lt_irrefl _ (Nat.le_lt_trans _ _ _ (NoDup_incl_length ND HI) HL)).
  - apply filter_head_in in F as [Hin Hm]. apply negb_true_iff, mem_false in Hm.
    assert (HU : In y (flat_map snd g)).
    { apply in_app_or in Hin as [Hin|Hin]; [apply Hseed; exact Hin|].
      unfold succs in Hin. apply in_flat_map in Hin as [b [_ Hp]]. eapply parents_of_incl; exact Hp. }
    apply IH.
    + constructor; assumption.
    + intros z [<-|Hz]; [exact HU | apply HI; exact Hz].
    + cbn [length]. rewrite Nat.add_succ_r. exact HL.
Qed.

Lemma closure_fuel g u : closure g u <> None.
Proof.
  unfold closure, fuel_of. apply sat_fuel.
  - intros p Hp. eapply parents_of_incl; exact Hp.
  - constructor.
  - intros x [].
  - rewrite Nat.add_0_r. apply Nat.lt_succ_diag_r.
Qed.

Lemma find_gfind s u : gfind u (graph_of s) = option_map n_parents (find u s).
Proof.
  induction s as [|[k n] s IH]; cbn [find graph_of map gfind fst snd option_map]; [reflexivity|].
  destruct (N.eqb u k); [reflexivity | exact IH].
Qed.

Lemma same_graph_parents s s' u : graph_of s = graph_of s' ->
  option_map n_parents (find u s) = option_map n_parents (find u s').
Proof. intros G. rewrite <- !find_gfind, G. reflexivity. Qed.

Lemma parents_of_find s u :
  parents_of (graph_of s) u = match find u s with Some n => n_parents n | None => [] end.
Proof. unfold parents_of. rewrite find_gfind. destruct (find u s); reflexivity. Qed.

Lemma keys_graph_of s : map fst (graph_of s) = keys s.
Proof. unfold graph_of, keys. rewrite map_map. reflexivity. Qed.

Lemma find_some_in s u n : find u s = Some n -> In (u, n) s.
Proof.
  induction s as [|[k m] s IH]; cbn [find]; intros H; [discriminate|].
  destruct (N.eqb u k) eqn:E.
  - apply N.eqb_eq in E. injection H as <-. subst k. left; reflexivity.
  - right. apply IH; exact H.
Qed.

Lemma in_keys s u n : In (u, n) s -> In u (keys s).
Proof. intros H. apply in_map_iff. exists (u, n). split; [reflexivity | exact H]. Qed.

Lemma find_some_key s u n : find u s = Some n -> In u (keys s).
Proof. intros F. exact (in_keys s u n (find_some_in s u n F)). Qed.

Lemma find_none s u : find u s = None <-> ~ In u (keys s).
Proof.
  split.
  - induction s as [|[k n] s IH]; cbn [find keys map fst]; intros F; [intros []|].
    destruct (N.eqb_spec u k) as [->|E]; [discriminate|].
    intros [Hk|Hk]; [exact (E (eq_sym Hk)) | exact (IH F Hk)].
  - intros H. destruct (find u s) as [n|] eqn:F; [|reflexivity].
    exfalso. exact (H (find_some_key s u n F)).
Qed.

Lemma find_in_nodup s : NoDup (keys s) -> forall u n, In (u, n) s -> find u s = Some n.
Proof.
  induction s as [|[k m] s IH]; intros ND u n H; [destruct H|].
  cbn [find]. cbn [keys map fst] in ND. inversion ND as [|? ? Hk ND']; subst.
  destruct H as [H|H].
  - injection H as <- <-. rewrite N.eqb_refl. reflexivity.
  - destruct (N.eqb u k) eqn:E.
    + apply N.eqb_eq in E. subst. exfalso. exact (Hk (in_keys s k n H)).
    + apply IH; assumption.
Qed.

Lemma absent_no_reach s u a : find u s = None -> ~ reach (graph_of s) u a.
Proof.
  intros F H. apply reach_first in H as [p Hp]. rewrite parents_of_find, F in Hp. destruct Hp.
Qed.

Definition Inv (s : store) : Prop :=
  NoDup (keys s) /\
  forall u n, In (u, n) s ->
    (forall a, In a (ancestors n) <-> reach (graph_of s) u a)
    /\ ~ In u (ancestors n)
    /\ (forall a, In a (n_parents n) -> ~ In a (n_indirect n)).

Lemma Inv_nil : Inv [].
Proof. split; [constructor | intros ? ? []]. Qed.

Lemma Inv_ancestors s u n : Inv s -> find u s = Some n ->
  forall a, In a (ancestors n) <-> reach (graph_of s) u a.
Proof. intros [_ HI] F. apply find_some_in in F. apply (HI u n F). Qed.

Lemma Inv_reach s : Inv s -> forall u a,
  reach (graph_of s) u a <-> match find u s with Some n => In a (ancestors n) | None => False end.
Proof.
  intros HI u a. destruct (find u s) as [n|] eqn:F.
  - symmetry. apply Inv_ancestors; assumption.
  - split; [apply absent_no_reach; exact F | intros []].
Qed.

Lemma recompute_nodes_result g : forall todo,
  match recompute_nodes g todo with
  | TOk s => graph_of s = todo /\
             forall u n, In (u, n) s ->
               ~ reach g u u /\ forall a, In a (n_indirect n) <-> reach g u a /\ ~ In a (n_parents n)
  | TErr e => e = ECycle /\ exists u, In u (map fst todo) /\ reach g u u
  end.
Proof.
  induction todo as [|[u ps] t IH]; cbn [recompute_nodes].
  - split; [reflexivity | intros ? ? []].
  - destruct (closure g u) as [c|] eqn:C; [|exfalso; exact (closure_fuel g u C)].
    pose proof (closure_correct g u c C) as Hc.
    destruct (mem u c) eqn:M.
    + split; [reflexivity|]. exists u. split; [left; reflexivity|]. apply Hc, mem_In, M.
    + destruct (recompute_nodes g t) as [rest|e].
      * destruct IH as [Hg Hn]. split.
        -- cbn [graph_of map fst snd n_parents]. f_equal. exact Hg.
        -- intros v n [Hv|Hv]; [|exact (Hn v n Hv)]. injection Hv as <- <-. cbn [n_indirect n_parents].
           split; [rewrite <- Hc; apply mem_false, M|].
           intros a. rewrite filter_In, negb_true_iff, mem_false, Hc. reflexivity.
      * destruct IH as [E [v [Hv Hr]]]. split; [exact E|]. exists v. split; [right; exact Hv | exact Hr].
Qed.

Lemma recompute_inv g s : NoDup (map fst g) -> recompute g = TOk s -> Inv s /\ graph_of s = g.
Proof.
  intros ND H. pose proof (recompute_nodes_result g g) as R. unfold recompute in H. rewrite H in R.
  destruct R as [Hg Hn]. split; [|exact Hg]. subst g. rewrite keys_graph_of in ND.
  split; [exact ND|]. intros u n Hin. destruct (Hn u n Hin) as [Hcyc Hind].
  pose proof (parents_of_find s u) as P. rewrite (find_in_nodup s ND u n Hin) in P.
  assert (Hanc : forall a, In a (ancestors n) <-> reach (graph_of s) u a).
  { intros a. unfold ancestors. rewrite in_app_iff, Hind. split.
    - intros [Ha|[Ha _]]; [apply reach_parent; rewrite P; exact Ha | exact Ha].
    - intros Ha. destruct (mem a (n_parents n)) eqn:E.
      + left. apply mem_In; exact E.
      + right. split; [exact Ha | apply mem_false; exact E]. }
  split; [exact Hanc|]. split.
  - rewrite Hanc. exact Hcyc.
  - intros a Ha Hi. apply Hind in Hi. apply Hi; exact Ha.
Qed.

Lemma recompute_reject g :
  (forall e, recompute g = TErr e -> e = ECycle) /\
  (recompute g = TErr ECycle <-> exists u, In u (map fst g) /\ reach g u u).
Proof.
  pose proof (recompute_nodes_result g g) as R. unfold recompute. split; [|split].
  - intros e H. rewrite H in R. apply R.
  - intros H. rewrite H in R. apply R.
  - intros [u [Hu Hr]]. destruct (recompute_nodes g g) as [s|e]; destruct R as [A B].
    + exfalso. rewrite <- A, keys_graph_of in Hu. apply in_map_iff in Hu as [[k n] [<- Hin]].
      exact (proj1 (B k n Hin) Hr).
    + subst e. reflexivity.
Qed.

Lemma keys_app s t : keys (s ++ t) = keys s ++ keys t.
Proof. unfold keys. apply map_app. Qed.

Lemma keys_snoc_fresh s u n : NoDup (keys s) -> find u s = None -> NoDup (keys (s ++ [(u, n)])).
Proof.
  intros ND F. rewrite keys_app. apply (Permutation_NoDup (Permutation_cons_append (keys s) u)).
  constructor; [apply find_none; exact F | exact ND].
Qed.

Lemma upd_noover_ok s e s' : upd_noover s e = TOk s' ->
  s' = s \/ (find (fst e) s = None /\ s' = s ++ [(fst e, mkNode (snd e) [])]).
Proof.
  unfold upd_noover. destruct (find (fst e) s).
  - destruct (set_eqb _ _); [|discriminate]. intros H. injection H as <-. left; reflexivity.
  - intros H. injection H as <-. right. split; reflexivity.
Qed.

Lemma insert_all_keys : forall es s s', NoDup (keys s) -> insert_all s es = TOk s' -> NoDup (keys s').
Proof.
  induction es as [|e es IH]; intros s s' ND H; cbn [insert_all] in H.
  - injection H as <-. exact ND.
  - destruct (upd_noover s e) as [s1|x] eqn:U; [|discriminate].
    eapply IH; [|exact H].
    apply upd_noover_ok in U as [-> | [F ->]]; [exact ND | apply keys_snoc_fresh; assumption].
Qed.

Lemma keys_update u f s : keys (update u f s) = keys s.
Proof.
  unfold keys, update. rewrite map_map. apply map_ext. intros [k n]. cbn [fst]. destruct (N.eqb u k); reflexivity.
Qed.

Lemma upd_over_keys s e : NoDup (keys s) -> NoDup (keys (upd_over s e)).
Proof.
  unfold upd_over. intros ND. destruct (find (fst e) s) eqn:F.
  - rewrite keys_update. exact ND.
  - apply keys_snoc_fresh; assumption.
Qed.

Lemma filter_map_swap {A B} (f : A -> B) (q : B -> bool) l :
  filter q (map f l) = map f (filter (fun a => q (f a)) l).
Proof.
  induction l as [|a l IH]; cbn [map filter]; [reflexivity|].
  destruct (q (f a)); cbn [map]; rewrite IH; reflexivity.
Qed.

Lemma keys_delete u s : keys (delete u s) = filter (fun k => negb (N.eqb u k)) (keys s).
Proof. symmetry. exact (filter_map_swap fst (fun k => negb (N.eqb u k)) s). Qed.

Lemma edit_remove_keys s u : NoDup (keys s) -> NoDup (keys (edit_remove s u)).
Proof.
  unfold edit_remove. intros ND. destruct (find u s); [|exact ND].
  unfold keys. rewrite map_map. cbn [fst]. fold (keys (delete u s)).
  rewrite keys_delete. apply NoDup_filter; exact ND.
Qed.

Lemma fold_keys {A} (f : store -> A -> store) :
  (forall s a, NoDup (keys s) -> NoDup (keys (f s a))) ->
  forall l s, NoDup (keys s) -> NoDup (keys (fold_left f l s)).
Proof.
  intros Hf. induction l as [|a l IH]; intros s ND; cbn [fold_left]; [exact ND|].
  apply IH. apply Hf. exact ND.
Qed.

Lemma s_edit_keys s o s1 : NoDup (keys s) -> s_edit s o = TOk s1 -> NoDup (keys s1).
Proof.
  intros ND H. destruct o; cbn [s_edit] in H.
  - eapply insert_all_keys; [|exact H]. constructor.
  - eapply insert_all_keys; eassumption.
  - injection H as <-. apply fold_keys; [apply upd_over_keys | exact ND].
  - injection H as <-. apply fold_keys; [apply edit_remove_keys | exact ND].
Qed.

Lemma spec_op_inv s o s' :
  NoDup (keys s) -> s_compute s o = TOk s' ->
  exists s1, s_edit s o = TOk s1 /\ graph_of s' = graph_of s1 /\ Inv s'.
Proof.
  unfold s_compute. intros ND H. destruct (s_edit s o) as [s1|e] eqn:E; [|discriminate].
  exists s1. split; [reflexivity|].
  apply recompute_inv in H.
  - destruct H as [HI Hg]. split; assumption.
  - rewrite keys_graph_of. eapply s_edit_keys; eassumption.
Qed.

Lemma upd_noover_err s e x : upd_noover s e = TErr x -> x = EDuplicate.
Proof.
  unfold upd_noover. intros H. destruct (find (fst e) s); [|discriminate].
  destruct (set_eqb _ _); [discriminate|]. injection H as <-. reflexivity.
Qed.

Lemma insert_all_err : forall es s x, insert_all s es = TErr x -> x = EDuplicate.
Proof.
  induction es as [|e es IH]; intros s x H; cbn [insert_all] in H; [discriminate|].
  destruct (upd_noover s e) as [s1|y] eqn:U; [exact (IH s1 x H)|].
  injection H as <-. exact (upd_noover_err s e y U).
Qed.

Lemma spec_op_reject s o e :
  s_compute s o = TErr e ->
  (e = EDuplicate /\ s_edit s o = TErr EDuplicate) \/
  (e = ECycle /\ exists s1 u, s_edit s o = TOk s1 /\ In u (keys s1) /\ reach (graph_of s1) u u).
Proof.
  unfold s_compute. intros H. destruct (s_edit s o) as [s1|x] eqn:E.
  - right. destruct (recompute_reject (graph_of s1)) as [Hc Hcyc].
    pose proof (Hc e H) as ->. apply Hcyc in H as [u [Hu Hr]]. split; [reflexivity|].
    exists s1, u. rewrite keys_graph_of in Hu. auto.
  - injection H as ->. left.
    assert (X : e = EDuplicate); [|subst; split; reflexivity].
    destruct o; cbn [s_edit] in E; try discriminate; exact (insert_all_err _ _ _ E).
Qed.

Lemma spec_op_cycle_rejected s o s1 u :
  s_edit s o = TOk s1 -> In u (keys s1) -> reach (graph_of s1) u u -> s_compute s o = TErr ECycle.
Proof.
  unfold s_compute. intros E Hu Hr. rewrite E. apply recompute_reject. exists u.
  rewrite keys_graph_of. auto.
Qed.

Lemma s_op_step_inv s o : op_compute o = true -> Inv s -> Inv (step s_op s o).
Proof.
  intros Hc HI. unfold step, s_op. rewrite Hc.
  destruct (s_compute s o) as [s'|e] eqn:E; [|exact HI].
  apply spec_op_inv in E; [|apply HI]. destruct E as [s1 [_ [_ H]]]. exact H.
Qed.

Lemma history_inv : forall ops s,
  Forall (fun o => op_compute o = true) ops -> Inv s -> Inv (fold_left (step s_op) ops s).
Proof.
  induction ops as [|o ops IH]; intros s HF HI; cbn [fold_left]; [exact HI|].
  inversion HF; subst. apply IH; [assumption|]. apply s_op_step_inv; assumption.
Qed.

Lemma queries s : Inv s ->
  (forall e a, q_in s e a = true <-> (e = a \/ reach (graph_of s) e a)) /\
  (forall a e, q_is_ancestor_of s a e = true <-> (a = e \/ reach (graph_of s) e a)) /\
  (forall u, match q_ancestors s u with
             | Some l => forall a, In a l <-> reach (graph_of s) u a
             | None => find u s = None /\ forall a, ~ reach (graph_of s) u a
             end).
Proof.
  intros HI. split; [|split].
  - intros e a. unfold q_in. rewrite orb_true_iff, N.eqb_eq, (Inv_reach s HI).
    destruct (find e s) as [n|]; [rewrite is_desc_In; reflexivity|].
    split; (intros [H|H]; [left; exact H | discriminate + destruct H]).
  - intros a e. unfold q_is_ancestor_of. rewrite (Inv_reach s HI).
    destruct (find e s) as [n|]; [rewrite orb_true_iff, N.eqb_eq, is_desc_In; reflexivity|].
    rewrite N.eqb_eq. tauto.
  - intros u. unfold q_ancestors. destruct (find u s) as [n|] eqn:F.
    + apply Inv_ancestors; assumption.
    + split; [reflexivity|]. intros a. apply absent_no_reach; exact F.
Qed.

Lemma enforce_ok s s' : enforce_tc_and_dag s = TOk s' ->
  s' = s /\
  (forall u n p pn gp, In (u, n) s -> In p (ancestors n) -> find p s = Some pn ->
                       In gp (ancestors pn) -> In gp (ancestors n)) /\
  (forall u n, In (u, n) s -> ~ In u (ancestors n)).
Proof.
  unfold enforce_tc_and_dag. destruct (enforce_tc s) eqn:T; [|discriminate].
  destruct (enforce_dag s) eqn:D; [|discriminate].
  intros H. injection H as <-. split; [reflexivity|]. split.
  - intros u n p pn gp Hin Hp Hf Hgp. unfold enforce_tc in T.
    rewrite forallb_forall in T. specialize (T (u, n) Hin). cbn [snd] in T.
    rewrite forallb_forall in T. specialize (T p Hp). rewrite Hf in T.
    rewrite forallb_forall in T. specialize (T gp Hgp). apply is_desc_In; exact T.
  - intros u n Hin Hu. unfold enforce_dag in D. rewrite forallb_forall in D.
    specialize (D (u, n) Hin). cbn [fst snd] in D. apply negb_true_iff in D.
    apply is_desc_In in Hu. congruence.
Qed.

Lemma enforce_closed s s' : enforce_tc_and_dag s = TOk s' ->
  forall u n, In (u, n) s -> NoDup (keys s) ->
    (forall a, reach (graph_of s) u a -> In a (ancestors n)) /\ ~ reach (graph_of s) u u.
Proof.
  intros H u n Hin ND. apply enforce_ok in H as [_ [Hc Hl]].
  pose proof (find_in_nodup s ND u n Hin) as Fu.
  assert (R : forall a, reach (graph_of s) u a -> In a (ancestors n)).
  { induction 1 as [p Hp | b p Hb IH Hp]; rewrite parents_of_find in Hp.
    - rewrite Fu in Hp. apply in_parents_ancestors; exact Hp.
    - destruct (find b s) as [bn|] eqn:F; [|destruct Hp].
      eapply Hc; [exact Hin | exact IH | exact F | apply in_parents_ancestors; exact Hp]. }
  split; [exact R|]. intros Hr. exact (Hl u n Hin (R u Hr)).
Qed.

Lemma i_add_loop_spec : forall es s t,
  match insert_all s es with
  | TOk s1 => exists t1, i_add_loop s t es = TOk (s1, t1)
                         /\ forall x, In x t \/ In x (map fst es) -> In x t1
  | TErr e => i_add_loop s t es = TErr e
  end.
Proof.
  induction es as [|e es IH]; intros s t; cbn [insert_all i_add_loop].
  - exists t. split; [reflexivity|]. intros x [H|[]]. exact H.
  - destruct (upd_noover s e) as [s2|x]; [|reflexivity].
    specialize (IH s2 (add_set (fst e) t)). destruct (insert_all s2 es) as [s1|x]; [|exact IH].
    destruct IH as [t1 [E H]]. exists t1. split; [exact E|].
    intros x [Hx|[<-|Hx]]; apply H.
    + left. apply add_set_In. right; exact Hx.
    + left. apply add_set_In. left; reflexivity.
    + right; exact Hx.
Qed.

Lemma inc_add_edit c s es :
  match insert_all s es with
  | TOk s1 => exists t, i_add c s es = finish c true t s1
  | TErr e => i_add c s es = TErr e
  end.
Proof.
  unfold i_add. pose proof (i_add_loop_spec es s []) as H. destruct (insert_all s es) as [s1|e].
  - destruct H as [t [-> _]]. exists t. reflexivity.
  - rewrite H. reflexivity.
Qed.

(* upsert and remove fold a step over the batch; the step of either layer acts on the parent graph alone
   (g_upd, g_remove) *)
Lemma fold_same_graph {A} (f : store -> A -> store) (h : store * list uid -> A -> store * list uid) :
  (forall s s' t a, graph_of s = graph_of s' -> graph_of (f s a) = graph_of (fst (h (s', t) a))) ->
  forall l s s' t, graph_of s = graph_of s' ->
    graph_of (fold_left f l s) = graph_of (fst (fold_left h l (s', t))).
Proof.
  intros Hstep. induction l as [|a l IH]; intros s s' t G; cbn [fold_left]; [exact G|].
  specialize (Hstep s s' t a G). destruct (h (s', t) a) as [s1 t1]. exact (IH _ _ _ Hstep).
Qed.

Lemma graph_of_delete u s : graph_of (delete u s) = filter (fun kp => negb (N.eqb u (fst kp))) (graph_of s).
Proof. symmetry. exact (filter_map_swap _ (fun kp : uid * list uid => negb (N.eqb u (fst kp))) s). Qed.

Lemma remove_set_notin u l : ~ In u l -> remove_set u l = l.
Proof.
  unfold remove_set. induction l as [|y l IH]; intros H; cbn [filter]; [reflexivity|].
  destruct (N.eqb u y) eqn:E.
  - apply N.eqb_eq in E. subst. exfalso. apply H. left; reflexivity.
  - cbn [negb]. f_equal. apply IH. intros Hin. apply H. right; exact Hin.
Qed.

Lemma fold_remove_indirect_parents l : forall n, n_parents (fold_left remove_indirect l n) = n_parents n.
Proof. induction l as [|a l IH]; intros n; cbn [fold_left]; [reflexivity|]. rewrite IH. reflexivity. Qed.

Definition g_remove (u : uid) (g : graph) : graph :=
  map (fun kp => (fst kp, remove_set u (snd kp))) (filter (fun kp => negb (N.eqb u (fst kp))) g).

Lemma spec_remove_graph s u : find u s <> None ->
  graph_of (edit_remove s u) = g_remove u (graph_of s).
Proof.
  unfold edit_remove, g_remove. intros F. destruct (find u s); [|congruence].
  rewrite <- graph_of_delete. unfold graph_of. rewrite !map_map. reflexivity.
Qed.

Lemma inc_remove_graph s t u : find u s <> None ->
  graph_of (fst (i_remove_one (s, t) u)) = g_remove u (graph_of s).
Proof.
  unfold i_remove_one, g_remove. intros F. destruct (find u s) as [rem|]; [|congruence].
  cbn [fst]. rewrite <- graph_of_delete. unfold graph_of. rewrite !map_map.
  apply map_ext. intros [k n]. cbn [fst snd].
  destruct (is_desc n u) eqn:D; cbn [fst snd].
  - rewrite fold_remove_indirect_parents. reflexivity.
  - f_equal. symmetry. apply remove_set_notin. intros Hin.
    apply in_parents_ancestors, is_desc_In in Hin. congruence.
Qed.

Lemma remove_step_same_graph s s' t u : graph_of s = graph_of s' ->
  graph_of (edit_remove s u) = graph_of (fst (i_remove_one (s', t) u)).
Proof.
  intros G. pose proof (same_graph_parents s s' u G) as FF.
  destruct (find u s) as [n|] eqn:F, (find u s') as [n'|] eqn:F'; try discriminate FF.
  - rewrite inc_remove_graph, spec_remove_graph, G by congruence. reflexivity.
  - unfold i_remove_one, edit_remove. rewrite F, F'. exact G.
Qed.

Definition g_upd (g : graph) (e : ent) : graph :=
  match gfind (fst e) g with
  | Some _ => map (fun kp => if N.eqb (fst e) (fst kp) then (fst kp, snd e) else kp) g
  | None => g ++ [(fst e, snd e)]
  end.

Lemma graph_of_upd_over s e : graph_of (upd_over s e) = g_upd (graph_of s) e.
Proof.
  unfold upd_over, g_upd. rewrite find_gfind. destruct (find (fst e) s) as [old|]; cbn [option_map].
  - unfold update, graph_of. rewrite !map_map. apply map_ext. intros [k n]. cbn [fst snd].
    destruct (N.eqb (fst e) k); reflexivity.
  - unfold graph_of. rewrite map_app. reflexivity.
Qed.

Lemma strip_parents n u old : n_parents (strip n u old) = n_parents n.
Proof. unfold strip. rewrite fold_remove_indirect_parents. reflexivity. Qed.

Lemma inc_upsert_graph s t e : graph_of (fst (i_upsert_one (s, t) e)) = g_upd (graph_of s) e.
Proof.
  unfold i_upsert_one. destruct (find (fst e) s) as [old|]; cbn [fst]; rewrite graph_of_upd_over; [|reflexivity].
  f_equal. unfold graph_of. rewrite map_map. apply map_ext. intros [k n]. cbn [fst snd].
  destruct (negb (N.eqb k (fst e)) && is_desc n (fst e)); cbn [fst snd]; [rewrite strip_parents|]; reflexivity.
Qed.

Lemma upsert_step_same_graph s s' t e : graph_of s = graph_of s' ->
  graph_of (upd_over s e) = graph_of (fst (i_upsert_one (s', t) e)).
Proof. intros G. rewrite graph_of_upd_over, inc_upsert_graph, G. reflexivity. Qed.

Lemma inc_edit_parents s o :
  match s_edit s o with
  | TErr e => i_op s o = TErr e
  | TOk s1 =>
      match o with
      | OFrom c _ => i_op s o = if c then recompute (graph_of s1) else enforce_tc_and_dag s1
      | OAdd c _ => exists t, i_op s o = finish c true t s1
      | OUpsert c _ => exists s2 t, i_op s o = finish c true t s2 /\ graph_of s2 = graph_of s1
      | ORemove c _ => exists s2 t, i_op s o = finish c false t s2 /\ graph_of s2 = graph_of s1
      end
  end.
Proof.
  destruct o; cbn [s_edit i_op].
  - unfold i_from. destruct (insert_all [] es); reflexivity.
  - apply inc_add_edit.
  - unfold i_upsert.
    pose proof (fold_same_graph _ _ upsert_step_same_graph (latest_versions es) s s [] eq_refl) as G.
    destruct (fold_left i_upsert_one (latest_versions es) (s, [])) as [s2 t].
    exists s2, t. split; [reflexivity | symmetry; exact G].
  - unfold i_remove.
    pose proof (fold_same_graph _ _ remove_step_same_graph us s s [] eq_refl) as G.
    destruct (fold_left i_remove_one us (s, [])) as [s2 t].
    exists s2, t. split; [reflexivity | symmetry; exact G].
Qed.
