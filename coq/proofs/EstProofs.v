(* est_to_ast_expr is stepped through by the dec_* equations, one per JSON shape that has parts; on the
   variable and slot shapes it computes. *)
From Coq Require Import String.
From Cedar Require Import Est ExprInd BaseFacts EstOrderProofs.
Open Scope Z_scope.

Definition both_bool (a b : expr) : bool :=
  match a, b with Lit (PBool _), Lit (PBool _) => true | _, _ => false end.

(* The JSON-representable fragment (what From<ast::Expr> for est::Expr followed by try_into_ast
   reproduces exactly).  Excluded: `Unknown` (serialised as a call of the function "unknown");
   `&&`/`||` nodes whose two operands are Boolean literals (the AST builder folds them);
   longs outside i64; extension function names that are not known single identifiers;
   entity type names that Name::from_normalized_str does not read back; record literals whose
   item list is not in BTreeMap order (sort_assoc l = l: key-sorted, duplicate free). *)
Fixpoint Rep (e : expr) : Prop :=
  match e with
  | Lit (PLong z) => in_i64 z = true
  | Lit (PEntity u) => parse_name (print_name (uty u)) = Some (uty u)
  | Lit _ | Var _ | Slot _ => True
  | Unknown _ _ => False
  | If a b c => Rep a /\ Rep b /\ Rep c
  | And a b | Or a b => both_bool a b = false /\ Rep a /\ Rep b
  | UnApp _ a | GetAttr a _ | HasAttr a _ | Like a _ => Rep a
  | BinApp _ a b => Rep a /\ Rep b
  | ExtCall fn args =>
      (exists k, fn = [k] /\ str_mem k known_ext_fns = true) /\
      (fix all (l : list expr) : Prop := match l with [] => True | x :: l' => Rep x /\ all l' end) args
  | Is a t => parse_name (print_name t) = Some t /\ Rep a
  | SetE l => (fix all (l : list expr) : Prop := match l with [] => True | x :: l' => Rep x /\ all l' end) l
  | RecordE l =>
      sort_assoc l = l /\
      (fix allr (l : list (str * expr)) : Prop :=
         match l with [] => True | kv :: l' => Rep (snd kv) /\ allr l' end) l
  end.

(* Rep (on call arguments and set elements) and env_ok of EstSetProofs.v (on slot environments) say "every
   member satisfies R" by a local fix building a conjunction; [all R] is that fix, so the two lemmas below
   apply to them as they stand. *)
Definition all {A} (R : A -> Prop) : list A -> Prop :=
  fix all l := match l with [] => True | x :: l' => R x /\ all l' end.

Lemma all_Forall {A} (R Q : A -> Prop) l : Forall (fun x => R x -> Q x) l -> all R l -> Forall Q l.
Proof. induction 1 as [|x l Hx _ IH]; intros H; constructor; [apply Hx|apply IH]; apply H. Qed.

Lemma all_impl {A} (R Q : A -> Prop) l : (forall x, R x -> Q x) -> all R l -> Forall Q l.
Proof. intros H. apply all_Forall, Forall_forall. intros x _. apply H. Qed.

Lemma json_nodup_arr l : json_nodup (JArr l) = forallb json_nodup l.
Proof. induction l as [|x l IH]; [reflexivity|]. cbn [forallb]. rewrite <- IH. reflexivity. Qed.

Lemma json_nodup_obj l :
  json_nodup (JObj l) = keys_nodup l && forallb (fun kv => json_nodup (snd kv)) l.
Proof.
  cbn [json_nodup]. f_equal.
  induction l as [|[k x] l IH]; [reflexivity|]. cbn [forallb snd]. rewrite <- IH. reflexivity.
Qed.

Lemma json_nodup_obj_map {A} (f : A -> json) (l : list (str * A)) :
  keys_nodup l = true -> Forall (fun kv => json_nodup (f (snd kv)) = true) l ->
  json_nodup (JObj (map (fun kv => (fst kv, f (snd kv))) l)) = true.
Proof.
  intros Hk Hl. rewrite json_nodup_obj, (keys_nodup_keys _ l), Hk by (rewrite map_map; reflexivity).
  apply (forallb_map_ok (fun kv => json_nodup (snd kv))). exact Hl.
Qed.

Lemma dec_list l :
  (fix go (l : list json) : res (list expr) :=
     match l with
     | [] => Ok []
     | x :: l' => do e <- est_to_ast_expr x; do es <- go l'; Ok (e :: es)
     end) l = mapM est_to_ast_expr l.
Proof. induction l as [|x l IH]; [reflexivity|]. cbn [mapM]. rewrite <- IH. reflexivity. Qed.

Lemma dec_fields l :
  (fix gor (l : list (str * json)) : res (list (str * expr)) :=
     match l with
     | [] => Ok []
     | (k, x) :: l' => do e <- est_to_ast_expr x; do es <- gor l'; Ok ((k, e) :: es)
     end) l = mapM (fun kv => do e <- est_to_ast_expr (snd kv); Ok (fst kv, e)) l.
Proof.
  induction l as [|[k x] l IH]; [reflexivity|]. cbn [mapM fst snd]. rewrite <- IH.
  destruct (est_to_ast_expr x); reflexivity.
Qed.

Lemma dec_value j : est_to_ast_expr (obj1 "Value" j) = if json_ints_ok j then value_to_expr j else bad.
Proof. reflexivity. Qed.

Lemma dec_ext k l :
  str_mem k known_ext_fns = true ->
  est_to_ast_expr (JObj [(k, JArr l)]) = (do es <- mapM est_to_ast_expr l; Ok (ExtCall [k] es)).
Proof. intros H. rewrite <- dec_list. cbn -[str_mem known_ext_fns]. rewrite H. reflexivity. Qed.

Lemma dec_set l : est_to_ast_expr (obj1 "Set" (JArr l)) = (do es <- mapM est_to_ast_expr l; Ok (SetE es)).
Proof. rewrite <- dec_list. reflexivity. Qed.

Lemma dec_record l :
  est_to_ast_expr (obj1 "Record" (JObj l)) =
  (do kvs <- mapM (fun kv => do e <- est_to_ast_expr (snd kv); Ok (fst kv, e)) l; Ok (RecordE (sort_assoc kvs))).
Proof. rewrite <- dec_fields. reflexivity. Qed.

Lemma dec_if a b c :
  est_to_ast_expr (obj1 "if-then-else" (JObj [(K "if", a); (K "then", b); (K "else", c)])) =
  (do x <- est_to_ast_expr a; do y <- est_to_ast_expr b; do z <- est_to_ast_expr c; Ok (If x y z)).
Proof. reflexivity. Qed.

Lemma dec_and a b :
  est_to_ast_expr (obj1 "&&" (lr a b)) =
  (do x <- est_to_ast_expr a; do y <- est_to_ast_expr b; Ok (mk_and x y)).
Proof. reflexivity. Qed.

Lemma dec_or a b :
  est_to_ast_expr (obj1 "||" (lr a b)) =
  (do x <- est_to_ast_expr a; do y <- est_to_ast_expr b; Ok (mk_or x y)).
Proof. reflexivity. Qed.

Lemma dec_unop o a :
  est_to_ast_expr (obj1 (unop_key o) (JObj [(K "arg", a)])) = (do x <- est_to_ast_expr a; Ok (UnApp o x)).
Proof. destruct o; reflexivity. Qed.

Lemma dec_binop o a b :
  est_to_ast_expr (obj1 (binop_key o) (lr a b)) =
  (do x <- est_to_ast_expr a; do y <- est_to_ast_expr b; Ok (BinApp o x y)).
Proof. destruct o; reflexivity. Qed.

Lemma dec_getattr a k :
  est_to_ast_expr (obj1 "." (JObj [(K "left", a); (K "attr", JStr k)])) = (do x <- est_to_ast_expr a; Ok (GetAttr x k)).
Proof. reflexivity. Qed.

Lemma dec_hasattr a k :
  est_to_ast_expr (obj1 "has" (JObj [(K "left", a); (K "attr", JStr k)]))
  = (do x <- est_to_ast_expr a; Ok (HasAttr x k)).
Proof. reflexivity. Qed.

Lemma dec_like a p :
  est_to_ast_expr (obj1 "like" (JObj [(K "left", a); (K "pattern", JArr p)])) =
  match pattern_of p with
  | Some pat => do x <- est_to_ast_expr a; Ok (Like x pat)
  | None => bad
  end.
Proof. reflexivity. Qed.

Lemma dec_is a t :
  est_to_ast_expr (obj1 "is" (JObj [(K "left", a); (K "entity_type", JStr t)])) =
  match parse_name t with
  | Some ty => do x <- est_to_ast_expr a; Ok (Is x ty)
  | None => bad
  end.
Proof. reflexivity. Qed.

Lemma dec_entity t i :
  value_to_expr (JObj [(K "__entity", JObj [(K "type", JStr t); (K "id", JStr i)])]) =
  match parse_name t with
  | Some n => Ok (Lit (PEntity (mkUid n i)))
  | None => bad
  end.
Proof. reflexivity. Qed.

Lemma pattern_rt p : pattern_of (map patelem_to_est p) = Some p.
Proof.
  induction p as [|x p IH]; [reflexivity|].
  cbn [map pattern_of]. rewrite IH. destruct x; reflexivity.
Qed.

Lemma slot_of_str s : slot_of (slot_str s) = Some s.
Proof. destruct s; reflexivity. Qed.

Lemma mk_and_no_fold a b : both_bool a b = false -> mk_and a b = And a b.
Proof. destruct (mk_and_cases a b) as [(x & y & -> & ->)|E]; [discriminate | intros _; exact E]. Qed.
Lemma mk_or_no_fold a b : both_bool a b = false -> mk_or a b = Or a b.
Proof. destruct (mk_or_cases a b) as [(x & y & -> & ->)|E]; [discriminate | intros _; exact E]. Qed.

Lemma est_expr_roundtrip : forall e, Rep e -> est_to_ast_expr (ast_to_est_expr e) = Ok e.
Proof.
  induction e using expr_ind'; intros HR; cbn [ast_to_est_expr].
  - rewrite dec_value. destruct p as [b|z|s|u]; try reflexivity.
    + cbn. rewrite HR. reflexivity.
    + change (value_to_expr (prim_to_est (PEntity u)) = Ok (Lit (PEntity u))).
      unfold prim_to_est, uid_json. rewrite dec_entity, HR. destruct u; reflexivity.
  - destruct v; reflexivity.
  - destruct s; reflexivity.
  - destruct HR.
  - destruct HR as (Ha & Hb & Hc). rewrite dec_if, IHe1, IHe2, IHe3 by assumption. reflexivity.
  - destruct HR as (Hf & Ha & Hb). rewrite dec_and, IHe1, IHe2 by assumption.
    exact (f_equal Ok (mk_and_no_fold _ _ Hf)).
  - destruct HR as (Hf & Ha & Hb). rewrite dec_or, IHe1, IHe2 by assumption. exact (f_equal Ok (mk_or_no_fold _ _ Hf)).
  - rewrite dec_unop, IHe by exact HR. reflexivity.
  - destruct HR as (Ha & Hb). rewrite dec_binop, IHe1, IHe2 by assumption. reflexivity.
  - destruct HR as ((k & -> & Hk) & Hall).
    rewrite (dec_ext _ _ Hk), mapM_map_ok; [reflexivity | exact (all_Forall _ _ _ H Hall)].
  - rewrite dec_getattr, IHe by exact HR. reflexivity.
  - rewrite dec_hasattr, IHe by exact HR. reflexivity.
  - rewrite dec_like, pattern_rt, IHe by exact HR. reflexivity.
  - destruct HR as (Ht & Ha). rewrite dec_is, Ht, IHe by exact Ha. reflexivity.
  - rewrite dec_set, mapM_map_ok; [reflexivity | exact (all_Forall _ _ _ H HR)].
  - destruct HR as (Hs & Hall). rewrite dec_record, mapM_map_ok; [cbn [bind]; rewrite Hs; reflexivity|].
    refine (Forall_impl _ _ (all_Forall _ _ _ H Hall)). intros [k x] Hx. cbn [fst snd] in *. rewrite Hx. reflexivity.
Qed.

Lemma nodup_single k j : json_nodup j = true -> json_nodup (JObj [(k, j)]) = true.
Proof. intros H. cbn. rewrite H. reflexivity. Qed.

Lemma nodup_pair k1 k2 a b :
  str_eqb k1 k2 = false -> json_nodup a = true -> json_nodup b = true ->
  json_nodup (JObj [(k1, a); (k2, b)]) = true.
Proof. intros Hk Ha Hb. cbn. unfold has_key. cbn [lookup]. rewrite Hk, Ha, Hb. reflexivity. Qed.

Lemma nodup_pattern p : json_nodup (JArr (map patelem_to_est p)) = true.
Proof.
  rewrite json_nodup_arr. apply forallb_map_ok, Forall_forall. intros [c|] _; reflexivity.
Qed.

Lemma nodup_expr : forall e, Rep e -> json_nodup (ast_to_est_expr e) = true.
Proof.
  induction e using expr_ind'; intros HR; cbn [ast_to_est_expr].
  - destruct p; reflexivity.
  - reflexivity.
  - reflexivity.
  - destruct HR.
  - destruct HR as (Ha & Hb & Hc). apply nodup_single. rewrite json_nodup_obj. cbn [forallb snd].
    rewrite IHe1, IHe2, IHe3 by assumption. reflexivity.
  - destruct HR as (_ & Ha & Hb). apply nodup_single, nodup_pair; [reflexivity | exact (IHe1 Ha) | exact (IHe2 Hb)].
  - destruct HR as (_ & Ha & Hb). apply nodup_single, nodup_pair; [reflexivity | exact (IHe1 Ha) | exact (IHe2 Hb)].
  - exact (nodup_single _ _ (nodup_single _ _ (IHe HR))).
  - destruct HR as (Ha & Hb). apply nodup_single, nodup_pair; [reflexivity | exact (IHe1 Ha) | exact (IHe2 Hb)].
  - destruct HR as (_ & Hall). apply nodup_single. rewrite json_nodup_arr.
    apply forallb_map_ok. exact (all_Forall _ _ _ H Hall).
  - apply nodup_single, nodup_pair; [reflexivity | exact (IHe HR) | reflexivity].
  - apply nodup_single, nodup_pair; [reflexivity | exact (IHe HR) | reflexivity].
  - apply nodup_single, nodup_pair; [reflexivity | exact (IHe HR) | apply nodup_pattern].
  - destruct HR as (_ & Ha). apply nodup_single, nodup_pair; [reflexivity | exact (IHe Ha) | reflexivity].
  - apply nodup_single. rewrite json_nodup_arr. apply forallb_map_ok. exact (all_Forall _ _ _ H HR).
  - destruct HR as (Hs & Hall). apply nodup_single, json_nodup_obj_map.
    + exact (sort_fix_nodup _ Hs).
    + exact (all_Forall _ _ _ H Hall).
Qed.

Lemma dec_when b :
  clause_to_ast (JObj [(K "kind", JStr (K "when")); (K "body", b)]) =
  (do e <- est_to_ast_expr b; if has_slot e then bad else Ok e).
Proof. reflexivity. Qed.

Lemma nodup_conditions e : Rep e -> json_nodup (ast_to_est_conditions (Some e)) = true.
Proof. intros HR. cbn. rewrite (nodup_expr _ HR). reflexivity. Qed.

Lemma est_conditions_roundtrip e :
  Rep e -> has_slot e = false ->
  est_to_ast_conditions (ast_to_est_conditions (Some e)) = Ok (Some e).
Proof.
  intros HR Hs. unfold est_to_ast_conditions. rewrite (nodup_conditions _ HR).
  cbn [negb ast_to_est_conditions mapM]. rewrite dec_when, (est_expr_roundtrip _ HR). cbn [bind].
  rewrite Hs. reflexivity.
Qed.

Lemma fold_conditions_two a b : fold_conditions [a; b] = Some (mk_and a b).
Proof. reflexivity. Qed.
