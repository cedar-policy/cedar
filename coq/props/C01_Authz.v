(* C01 — Authorization: default-deny, forbid-overrides, skip-on-error, pure function.
   The statements quantify over an arbitrary list of policies `ps` and an arbitrary per-policy evaluation
   function `evalp`; `c01_id_spelling` is about the model evaluator. *)
From Coq Require Import Permutation.
From Cedar Require Import Authz AuthzProofs.

(* decision = Allow  <->  some permit satisfied and no forbid satisfied *)
Theorem c01_decision_allow :
  forall (evalp : policy -> res bool) (ps : list policy),
    rdecision (authorize_with evalp ps) = Allow <->
    (exists p, In p ps /\ peffect p = Permit /\ evalp p = Ok true) /\
    ~ (exists p, In p ps /\ peffect p = Forbid /\ evalp p = Ok true).
Proof. exact decision_allow_iff. Qed.
Print Assumptions c01_decision_allow.

(* ... and Deny otherwise (default deny, forbid overrides, erroring policies do not count) *)
Theorem c01_decision_deny :
  forall (evalp : policy -> res bool) (ps : list policy),
    rdecision (authorize_with evalp ps) = Deny <->
    ~ ((exists p, In p ps /\ peffect p = Permit /\ evalp p = Ok true) /\
       ~ (exists p, In p ps /\ peffect p = Forbid /\ evalp p = Ok true)).
Proof. exact decision_deny_iff. Qed.
Print Assumptions c01_decision_deny.

(* diagnostics.errors = exactly the erroring policies, by id, with their error *)
Theorem c01_errors :
  forall (evalp : policy -> res bool) (ps : list policy) (i : str) (e : err),
    In (i, e) (rerrors (authorize_with evalp ps)) <->
    exists p, In p ps /\ pid p = i /\ evalp p = Err e.
Proof. intros evalp ps i e. rewrite authorize_closed. apply in_err_ids. Qed.
Print Assumptions c01_errors.

(* an erroring policy counts as not satisfied *)
Theorem c01_error_not_satisfied :
  forall (evalp : policy -> res bool) (ps : list policy) (i : str) (e : err),
    In (i, e) (rerrors (authorize_with evalp ps)) ->
    exists p, In p ps /\ pid p = i /\ evalp p <> Ok true.
Proof.
  intros evalp ps i e H. apply c01_errors in H as [p [Hp [Hi He]]]. exists p. repeat split; auto. congruence.
Qed.
Print Assumptions c01_error_not_satisfied.

(* diagnostics.reason = the satisfied forbids if there are any, otherwise the satisfied permits *)
Theorem c01_reasons :
  forall (evalp : policy -> res bool) (ps : list policy) (i : str),
    In i (rreasons (authorize_with evalp ps)) <->
    ((exists p, In p ps /\ peffect p = Forbid /\ evalp p = Ok true) /\
     exists p, In p ps /\ pid p = i /\ peffect p = Forbid /\ evalp p = Ok true) \/
    (~ (exists p, In p ps /\ peffect p = Forbid /\ evalp p = Ok true) /\
     exists p, In p ps /\ pid p = i /\ peffect p = Permit /\ evalp p = Ok true).
Proof. exact reasons_iff. Qed.
Print Assumptions c01_reasons.

(* the response does not depend on policy order *)
Theorem c01_order_independent :
  forall (evalp : policy -> res bool) (ps ps' : list policy),
    Permutation ps ps' ->
    rdecision (authorize_with evalp ps) = rdecision (authorize_with evalp ps') /\
    Permutation (rreasons (authorize_with evalp ps)) (rreasons (authorize_with evalp ps')) /\
    Permutation (rerrors (authorize_with evalp ps)) (rerrors (authorize_with evalp ps')).
Proof. exact authorize_perm. Qed.
Print Assumptions c01_order_independent.

(* ... nor on how policy ids are spelled: renaming ids renames the response, nothing else *)
Theorem c01_id_spelling :
  forall (q : request) (es : entities) (f : str -> str) (ps : list policy),
    let r := is_authorized ps q es in
    let r' := is_authorized (map (rename_policy f) ps) q es in
    rdecision r' = rdecision r /\ rreasons r' = map f (rreasons r) /\
    rerrors r' = map (fun ie => (f (fst ie), snd ie)) (rerrors r).
Proof.
  intros q es f ps. exact (authorize_rename (eval_policy q es) f (eval_policy_rename q es f) ps).
Qed.
Print Assumptions c01_id_spelling.

(* Non-vacuity: a concrete set mixing a satisfied permit, a satisfied forbid and an erroring permit *)
Example c01_example :
  let mk i eff body := mkPolicy (mkTemplate [i] [] eff CAny AAny CAny (Some body)) None [] in
  let ps := [mk 1%N Permit (Lit (PBool true));
             mk 2%N Forbid (Lit (PBool true));
             mk 3%N Permit (BinApp BAdd (Lit (PLong 1)) (Lit (PString [])))] in
  let u := mkUid [[65%N]] [97%N] in
  let r := is_authorized ps (mkRequest u u u []) [] in
  rdecision r = Deny /\ rreasons r = [[2%N]] /\ rerrors r = [([3%N], ErrType)].
Proof. vm_compute. repeat split. Qed.
